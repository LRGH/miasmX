(** C11 — every decodable instruction lifts to well-typed IR.
    The lifter of the working tree is run on one representative per (mnemonic, operand size, address size, operand shape)
    signature of the decoder's control space (8 280 forms) and the resulting IR is written as Gallina terms (MxGen.LiftAll,
    regenerated on every run).  The obligation: every dumped form satisfies every clause of the property, EXCEPT the
    (mnemonic, operand-size, clause) classes listed in LiftKnown.v (the recorded findings of the unchanged tree). *)
From Coq Require Import ZArith List Bool String.
From Mx Require Import Expr Wf LiftKnown LiftFacts Reflect.
From MxGen Require Import LiftAll.
Import ListNotations.

Theorem C11_all_lifted_wf_except : forallb (all_ok lift_known) shards = true.
Proof. exact all_lifted_wf_except. Qed.
Print Assumptions C11_all_lifted_wf_except.

Theorem C11_every_case : forall cs c, In cs shards -> In c cs ->
  forall cl, In cl (violated (lc_lift c)) -> in_known lift_known (lc_mnemo c) (lc_o16 c) cl = true.
Proof.
  intros cs c Hcs Hc. apply forallb_forall. exact (forallb_forallb_In (case_ok lift_known) shards all_lifted_wf_except cs c Hcs Hc).
Qed.
Print Assumptions C11_every_case.

(** non-vacuity: "add eax, ebx" violates no clause *)
Example C11_add_is_wf : exists cs c, In cs shards /\ In c cs /\ lc_mnemo c = "add"%string /\ violated (lc_lift c) = [].
Proof.
  exists (hd [] shards). 
  destruct (find (fun c => (lc_mnemo c =? "add")%string && match violated (lc_lift c) with [] => true | _ => false end) (hd [] shards)) as [c|] eqn:F.
  - exists c. apply find_some in F. destruct F as [I P]. apply andb_true_iff in P as [P1 P2]. apply String.eqb_eq in P1.
    repeat split; auto. + unfold shards; simpl; auto. + destruct (violated (lc_lift c)); [reflexivity|discriminate].
  - vm_compute in F. discriminate.
Qed.
