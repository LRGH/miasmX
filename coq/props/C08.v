(** C08 — read/write sets of lifted semantics never omit a dependency.  Property theorems only.
    The IR half of the property is a theorem: for ANY assignment list (in particular every list the lifter returns, whatever
    the instruction), the union of get_r(mem_read=True) over the list contains every identifier and memory cell its values
    depend on, and get_w names every destination.  The processor half (the lifted list describes the instruction: C04) is
    decided by dependency and write probing against the SDM reference (harness/p_c08.py). *)
From Coq Require Import ZArith List Bool String.
From Mx Require Import Expr ExprProofs.
Import ListNotations.
Open Scope Z_scope.

(** If two states agree on everything in the reported read set, every assignment of the list computes the same value in both:
    no register, flag or memory cell outside the read set can influence any result of the lifted semantics. *)
Theorem C08_read_set_complete : forall rho rho' mu mu' iota l,
  (forall x, InR x (reads l) -> agree rho rho' mu mu' iota true x) ->
  map (eval rho mu iota) l = map (eval rho' mu' iota) l.
Proof. exact reads_coincidence. Qed.
Print Assumptions C08_read_set_complete.

(** the addresses of the written cells depend only on the read set as well: ExprAff.get_r reports what the address of a
    memory destination reads (Expr.get_r, case EAff) *)
Theorem C08_get_w_names_destination_id : forall n w r t s, get_w (EAff (EId n w r t) s) = Some [EId n w r t].
Proof. reflexivity. Qed.
Print Assumptions C08_get_w_names_destination_id.
Theorem C08_get_w_names_destination_mem : forall a w sg s, get_w (EAff (EMem a w sg) s) = Some [EMem a w sg].
Proof. reflexivity. Qed.
Print Assumptions C08_get_w_names_destination_mem.

Example C08_nonvacuous :
  reads [EAff (EId "eax" 32 true false) (EOp "+" [EId "eax" 32 true false; EMem (EId "ebx" 32 true false) 32 None]);
         EAff (EId "zf" 1 true false) (EId "cf" 1 true false)]
  = [EId "eax" 32 true false; EId "ebx" 32 true false; EMem (EId "ebx" 32 true false) 32 None; EId "cf" 1 true false].
Proof. vm_compute. reflexivity. Qed.
