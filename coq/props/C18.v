(** C18 — PowerPC words decode unambiguously and re-encode to themselves (word-level part). *)
From Coq Require Import ZArith List Bool String.
From Mx Require Import Ppc PpcProofs PpcFacts.
From MxGen Require Import PpcTables.
Import ListNotations.
Open Scope Z_scope.

(** for EVERY 32-bit word (indeed every integer) at most one instruction class of the table miasmx builds
    (regenerated from /repo on every run) claims it — proved without enumerating words: a sound syntactic
    disjointness test on the class constraints holds for all 82*81/2 pairs *)
Theorem C18_at_most_one_class : forall w, (List.length (claimants ppc_classes w) <= 1)%nat.
Proof. exact (claimants_at_most_one ppc_classes classes_disjoint). Qed.
Print Assumptions C18_at_most_one_class.

(** the disjointness test is sound for arbitrary classes (not only the dumped ones) *)
Theorem C18_disjointb_sound : forall c1 c2 w, class_wf c1 = true -> class_wf c2 = true -> disjointb c1 c2 = true ->
  check c1 w = true -> check c2 w = true -> False.
Proof. intros c1 c2 w _ _. apply disjointb_sound. Qed.
Print Assumptions C18_disjointb_sound.

(** the fields of every class tile the 32 bits of the word *)
Theorem C18_fields_tile : forallb (fun c => total_mask c =? Z.ones 32) ppc_classes = true.
Proof. exact fields_tile. Qed.
Print Assumptions C18_fields_tile.

(** decoding the fields of a word and re-encoding them gives the word back, for every class with plain field
    codecs and every 32-bit word (the class test is not even needed) *)
Theorem C18_reencode_identity : forall c w, plain_fields c = true -> total_mask c = Z.ones 32 -> 0 <= w < 2 ^ 32 -> reencode c w = w.
Proof. exact reencode_identity. Qed.
Print Assumptions C18_reencode_identity.

Theorem C18_reencode_all_plain : forall c, In c ppc_classes -> plain_fields c = true -> forall w, 0 <= w < 2 ^ 32 -> reencode c w = w.
Proof.
  intros c I P w W. apply reencode_identity; auto.
  pose proof fields_tile as T. rewrite forallb_forall in T. apply Z.eqb_eq. apply T. assumption.
Qed.
Print Assumptions C18_reencode_all_plain.

(** non-vacuity: addi r3, r1, 8 *)
Example C18_nonvacuous : map pc_name (claimants ppc_classes 945881096) = ["ppc_addi"%string]
  /\ (exists c, In c ppc_classes /\ pc_name c = "ppc_addi"%string /\ plain_fields c = true).
Proof. split; [vm_compute; reflexivity|]. eexists. split; [left; reflexivity|]. split; vm_compute; reflexivity. Qed.
