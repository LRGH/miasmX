(** SemSysProofs.v — what the mirror of SemSys.v means, for all states. *)
From Coq Require Import ZArith List Bool String Lia.
From Mx Require Import Expr ExprProofs Bits Sem SemProofs SemMov SemMovProofs SemSys ComposeProofs.
Import ListNotations.
Open Scope Z_scope.

(** the loop of Expr.bit_scan_fwd: the first set bit of v among the n positions from i upwards, 0 if there is none *)
Definition first_set (v : Z) := fix go (n : nat) (i : Z) : Z := match n with O => 0 | S k => if Z.testbit v i then i else go k (i + 1) end.
Lemma bsf_first_set v : bit_scan_fwd v = first_set v 64%nat 0.
Proof. reflexivity. Qed.
Lemma first_set_spec v : forall n i, (exists j, i <= j < i + Z.of_nat n /\ Z.testbit v j = true) ->
  let r := first_set v n i in Z.testbit v r = true /\ i <= r < i + Z.of_nat n /\ forall t, i <= t < r -> Z.testbit v t = false.
Proof.
  induction n as [|n IH]; intros i [j [Hj Tj]]; [lia|]. cbn [first_set]. destruct (Z.testbit v i) eqn:T.
  - split; [exact T|]. split; [lia|]. intros t Ht. lia.
  - assert (J : i + 1 <= j < i + 1 + Z.of_nat n). { destruct (Z.eq_dec j i) as [->|N]; [congruence | lia]. }
    destruct (IH (i + 1) (ex_intro _ j (conj J Tj))) as (A & B & C). fold (first_set v n (i + 1)). split; [exact A|]. split; [lia|].
    intros t Ht. destruct (Z.eq_dec t i) as [->|N]; [exact T | apply C; lia].
Qed.
(** bsf: the index of the lowest set bit; bsr: the index of the highest set bit *)
Theorem bsf_lowest v : 0 < v < 2 ^ 64 -> let k := bit_scan_fwd v in 0 <= k < 64 /\ Z.testbit v k = true /\ forall t, 0 <= t < k -> Z.testbit v t = false.
Proof.
  intros Hv k. unfold k. rewrite bsf_first_set.
  assert (E : exists j, 0 <= j < 0 + Z.of_nat 64 /\ Z.testbit v j = true).
  { exists (Z.log2 v). split; [split; [apply Z.log2_nonneg | apply Z.log2_lt_pow2; lia] | apply Z.bit_log2; lia]. }
  destruct (first_set_spec v 64%nat 0 E) as (A & B & C). split; [lia|]. split; assumption.
Qed.
Theorem bsr_highest v : 0 < v -> let k := bit_scan_rev v in Z.testbit v k = true /\ forall t, k < t -> Z.testbit v t = false.
Proof.
  intros Hv k. unfold k, bit_scan_rev. replace (v <=? 0) with false by (symmetry; apply Z.leb_gt; lia). split; [apply Z.bit_log2; lia | intros t Ht; apply Z.bits_above_log2; lia].
Qed.
Lemma named_bsf a : named_op "bsf" [a] = Some (bit_scan_fwd a). Proof. reflexivity. Qed.
Lemma named_bsr a : named_op "bsr" [a] = Some (bit_scan_rev a). Proof. reflexivity. Qed.

Section Meaning.
  Variable rho : string -> Z.
  Variable mu : Z -> Z.
  Variable iota : string -> list Z -> Z.
  Notation ev := (eval rho mu iota).

  (** bsf / bsr on a non-zero operand of at most 64 bits: the destination receives the index of the lowest / highest set bit *)
  Theorem bsf_value b : operand_ok b = true -> size b <= 64 -> ev b <> 0 ->
    let k := ev (EOp "bsf" [b]) in 0 <= k < size b /\ Z.testbit (ev b) k = true /\ forall t, 0 <= t < k -> Z.testbit (ev b) t = false.
  Proof.
    intros Ob Sb Nz. destruct (operand_range rho mu iota b Ob) as [Pb Rb]. cbv zeta. rewrite (ev_named rho mu iota "bsf" [b] _ (named_bsf _)), size_op1.
    assert (R64 : 0 < ev b < 2 ^ 64) by (split; [lia|]; apply Z.lt_le_trans with (2 ^ size b); [lia | apply Z.pow_le_mono_r; lia]).
    destruct (bsf_lowest (ev b) R64) as (A & B & C). cbv zeta in A, B, C.
    (* the lowest set bit lies inside the operand, which has no bit from its width on *)
    assert (K : bit_scan_fwd (ev b) < size b).
    { destruct (Z_lt_le_dec (bit_scan_fwd (ev b)) (size b)) as [L|L]; [exact L|]. rewrite (bits_above _ _ _ Rb L) in B. discriminate. }
    pose proof (Z.pow_gt_lin_r 2 (size b)). rewrite wrap_small by lia. split; [lia|]. split; assumption.
  Qed.
  Theorem bsr_value b : operand_ok b = true -> ev b <> 0 ->
    let k := ev (EOp "bsr" [b]) in 0 <= k < size b /\ Z.testbit (ev b) k = true /\ forall t, k < t -> Z.testbit (ev b) t = false.
  Proof.
    intros Ob Nz. destruct (operand_range rho mu iota b Ob) as [Pb Rb]. cbv zeta. rewrite (ev_named rho mu iota "bsr" [b] _ (named_bsr _)), size_op1.
    destruct (bsr_highest (ev b) ltac:(lia)) as (A & B). cbv zeta in A, B.
    assert (K : 0 <= bit_scan_rev (ev b) < size b).
    { unfold bit_scan_rev. rewrite (proj2 (Z.leb_gt (ev b) 0)) by lia. split; [apply Z.log2_nonneg | apply Z.log2_lt_pow2; lia]. }
    pose proof (Z.pow_gt_lin_r 2 (size b)). rewrite wrap_small by lia. split; [exact K|]. split; assumption.
  Qed.
  (** setalc: al is all ones when cf is set, zero otherwise *)
  Theorem setalc_value : ev (ECond (flag "cf") (int_from al 255) (int_from al 0)) = if Z.odd (rho "cf") then 255 else 0.
  Proof. rewrite ev_cond, ev_flag. destruct (Z.odd (rho "cf")); reflexivity. Qed.
  (** xlat: the byte at ebx + zero-extended al, modulo 2^32 *)
  Theorem xlat_address : ev xlat_addr = (rho "ebx" + rho "eax" mod 2 ^ 8) mod 2 ^ 32.
  Proof.
    assert (Al : wrap 8 (ev al) = rho "eax" mod 2 ^ 8).
    { unfold al. rewrite ev_slice, Z.shiftr_0_r, wrap_idem. apply (wrap_wrap_ge 32 8). lia. }
    unfold xlat_addr. rewrite ev_add, ev_zext, Al by (discriminate || reflexivity). unfold wrap. apply Zplus_mod_idemp_l.
  Qed.

  (** pushf / popf: the EFLAGS image — bit j of the pushed value is the bit of the flag the layout places there *)
  Lemma layout_geom w : forall a, In a (if w =? 32 then eflag_low ++ eflag_high else eflag_low) -> 0 <= slot_lo a /\ slot_lo a <= slot_hi a.
  Proof.
    intros a Ha. assert (F : forallb (fun s => (0 <=? slot_lo s) && (slot_lo s <=? slot_hi s)) (eflag_low ++ eflag_high) = true) by (vm_compute; reflexivity).
    rewrite forallb_forall in F. assert (I : In a (eflag_low ++ eflag_high)) by (destruct (w =? 32); [exact Ha | apply in_or_app; left; exact Ha]).
    specialize (F a I). apply andb_true_iff in F as [A B]. apply Z.leb_le in A, B. split; assumption.
  Qed.
  Theorem eflags_image w s j : In s (if w =? 32 then eflag_low ++ eflag_high else eflag_low) -> slot_lo s <= j < slot_hi s ->
    Z.testbit (ev (compose_eflag w)) j = Z.testbit (ev (slot_e s)) (j - slot_lo s).
  Proof.
    intros Hs Hj. unfold compose_eflag. rewrite eval_compose_V. destruct (layout_geom w s Hs) as [G1 G2].
    assert (Oc : forall i, occ (if w =? 32 then eflag_low ++ eflag_high else eflag_low) i <= 1) by (apply pdisj_occ; destruct (w =? 32); vm_compute; reflexivity).
    exact (V_bit_unique rho mu iota _ s j ltac:(lia) (layout_geom w) Hs Oc Hj).
  Qed.
  (** popf assigns every flag of the layout its bits of the popped cell *)
  Theorem popf_assigns l cell f lo hi : In (f, lo, hi) l -> (forall sg w v, f <> EInt sg w v) -> In (EAff f (ESlice cell lo hi)) (popf_affs l cell).
  Proof.
    intros Hi Nc. unfold popf_affs. apply in_flat_map. exists (f, lo, hi). split; [exact Hi|]. unfold slot_e, slot_lo, slot_hi. cbn [fst snd].
    destruct f; try (left; reflexivity). exfalso. eapply Nc. reflexivity.
  Qed.
  Theorem slice_value c lo hi : ev (ESlice c lo hi) = (Z.shiftr (ev c) lo) mod 2 ^ (hi - lo).
  Proof. apply ev_slice. Qed.

  (** enter (nesting level 0): ebp is saved at esp - 4, becomes the frame pointer, and esp drops by the frame size plus 4, modulo 2^32 *)
  Theorem enter32_value a : size a = 32 ->
    ev (EOp "-" [esp; EInt false 32 4]) = (rho "esp" - 4) mod 2 ^ 32 /\
    ev (EOp "-" [esp; EOp "+" [a; EInt false 32 4]]) = (rho "esp" - (ev a + 4)) mod 2 ^ 32.
  Proof.
    intros Sa. split; [apply esp_minus|]. rewrite ev_sub, ev_add, Sa by (discriminate || lia).
    change (ev (EInt false 32 4)) with 4. change (ev esp) with (wrap 32 (rho "esp")). change (size esp) with 32.
    unfold wrap. rewrite Zminus_mod_idemp_l, Zminus_mod_idemp_r. reflexivity.
  Qed.
End Meaning.
