(** X86Proofs.v — lemmas about the decoder model that do not depend on the dumped tables. *)
From Coq Require Import ZArith List Bool String Lia.
From Mx Require Import Bits X86Types X86Dis X86Ref Reflect.
Import ListNotations.
Open Scope Z_scope.

(** the reported fall-through address is offset + length (getnextflow) *)
Lemma nextflow_is_offset_plus_len offset i : getnextflow offset i = offset + i_len i.
Proof. reflexivity. Qed.

(** destination arithmetic of a direct relative branch: with the displacement stored (as the decoder does)
    as the unsigned 32-bit residue of the sign-extended value, the reported destination is
    offset + length + displacement truncated to the operand size — for ALL offsets, lengths, displacements *)
Lemma dst_arith pfx mid name sz txt len opm adm offset disp ob :
  max_uint_bits opm = Some ob -> ob <= 32 -> name <> "jmpf"%string ->
  getdstflow offset (mkinstr pfx mid name [mkarg (Some AdF) sz [] (Some (32, wrapn 32 disp)) None txt] len opm adm)
  = DstVal ((offset + len + disp) mod 2 ^ ob).
Proof.
  intros Hob Hle Hn. unfold getdstflow. simpl.
  destruct (String.eqb_spec name "jmpf") as [E|_]; [contradiction|].
  unfold is_imm_arg, is_address; simpl. rewrite Hob. f_equal.
  assert (0 <= ob) by (destruct opm; simpl in Hob; inversion Hob; lia).
  rewrite land_mask by assumption. unfold Expr.wrap, wrapn.
  rewrite mod_mod_pow by lia.
  assert (2 ^ ob <> 0) by (apply Z.pow_nonzero; lia).
  rewrite (Z.add_mod (offset + len) (disp mod 2 ^ 32)) by assumption.
  rewrite (mod_mod_pow disp ob 32) by lia.
  rewrite <- Z.add_mod by assumption. reflexivity.
Qed.

Lemma modrm32_ok_forall T : modrm32_ok T = true -> forall m s, In m bytes256 -> In s bytes256 ->
  exists a, lookup32 T m s = Some a /\ afs_agrees a (sdm_modrm32 m s) = true.
Proof.
  intros H m s Hm Hs. pose proof (forallb2_In _ _ _ H m s Hm Hs) as K. cbv beta in K.
  destruct (lookup32 T m s) as [a|]; [exists a; auto | discriminate].
Qed.
