(** SemFlagMoveFacts.v — reflection obligation: every lahf / sahf form of the regenerated dump is the mirror of SemFlagMove.v. *)
From Coq Require Import ZArith List Bool.
From Mx Require Import Expr Wf Sem SemProofs SemFlagMove LiftTie.
From MxGen Require Import LiftAll.
Import ListNotations.
Definition fm_tie_ok : lcase -> bool := tie flagmove_mirror (fun m _ l => list_expr_eqb l m).
Lemma flagmove_forms_are_mirrors : forallb (forallb fm_tie_ok) shards = true.
Proof. vm_compute. reflexivity. Qed.
Lemma flagmove_forms_lifted : forall sh c m l, In sh shards -> In c sh -> flagmove_mirror (lc_mnemo c) = Some m -> lc_lift c = Some l ->
  forall rho mu iota, map (eval rho mu iota) l = map (eval rho mu iota) m.
Proof. intros sh c m l Hs Hc Hk Hl rho mu iota. exact (list_expr_eqb_eval _ _ _ _ _ (tie_In _ _ _ flagmove_forms_are_mirrors sh c m l Hs Hc Hk Hl)). Qed.
Definition n_fm : nat :=
  fold_left (fun acc sh => fold_left (fun acc c => match flagmove_mirror (lc_mnemo c), lc_lift c with Some _, Some _ => S acc | _, _ => acc end) sh acc) shards O.
Lemma some_flagmove_forms : (4 <= n_fm)%nat.
Proof. apply Nat.leb_le. vm_compute. reflexivity. Qed.
