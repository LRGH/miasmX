(** FuelProofs.v — the fuel of eval_expr (Python recursion depth) is not a hidden input: once a result is returned, more fuel returns
    the same result.  Results are ordered by definedness (le); every construct of the evaluator is monotone for that order, so one
    unfolding of eval_expr is monotone in its recursive call.  The file starts with what the other proofs about EvalAbs share:
    inversion of the result monad, and the two loops of the memory read paths under names of their own. *)
From Coq Require Import ZArith List Bool String.
From Mx Require Import Expr Simp EvalAbs.
Import ListNotations.
Open Scope string_scope.
Open Scope Z_scope.

Lemma bindx_ok {A B} (x : res A + xerr) (f : A -> res B + xerr) r : bindx x f = okx r -> exists a, x = okx a /\ f a = okx r.
Proof. unfold bindx, okx. destruct x as [[a|e|]|e]; intros H; try discriminate. exists a. split; [reflexivity | exact H]. Qed.
Lemma mapX_ok {A B} (f : A -> res B + xerr) : forall l r, mapX f l = okx r -> Forall2 (fun a b => f a = okx b) l r.
Proof.
  induction l as [|a l IH]; intros r H; cbn [mapX] in H; [injection H as <-; constructor|].
  apply bindx_ok in H as [b [Eb H]]. apply bindx_ok in H as [r' [Er H]]. injection H as <-. constructor; [exact Eb | apply IH; exact Er].
Qed.

Lemma mapX_ext {A B} (f g : A -> res B + xerr) l : Forall (fun a => f a = g a) l -> mapX f l = mapX g l.
Proof. induction 1 as [|a l Ha _ IH]; cbn [mapX]; [reflexivity | rewrite Ha, IH; reflexivity]. Qed.
Lemma mapX_pair {A B K} (g : A -> res B + xerr) (k : A -> K) l :
  mapX (fun a => dox v <- g a; okx (k a, v)) l = (dox vs <- mapX g l; okx (combine (map k l) vs)).
Proof.
  induction l as [|a l IH]; [reflexivity|]. cbn [mapX map]. rewrite IH.
  destruct (g a) as [[v| |]|]; try reflexivity. cbn [bindx okx]. destruct (mapX g l) as [[vs| |]|]; reflexivity.
Qed.

Lemma fold_stuck {A B} (F : res B + xerr -> A -> res B + xerr) l x : (forall a, F x a = x) -> fold_left F l x = x.
Proof. intros H. induction l as [|a l IH]; cbn [fold_left]; [reflexivity | rewrite H; exact IH]. Qed.
(** a left fold whose step first evaluates and then combines is: evaluate all, then combine all *)
Lemma fold_dox {A B K} (F : res B + xerr -> A -> res B + xerr) (g : A -> res K + xerr) (h : B -> K -> B) :
  (forall acc a, F acc a = dox o <- acc; dox k <- g a; okx (h o k)) ->
  forall l o0, fold_left F l (okx o0) = (dox ks <- mapX g l; okx (fold_left h ks o0)).
Proof.
  intros HF. induction l as [|a l IH]; intros o0; [reflexivity|]. cbn [fold_left mapX]. rewrite HF. cbn [bindx okx].
  destruct (g a) as [[k| |]|]; cbn [bindx okx]; [|apply fold_stuck; intros b; rewrite HF; reflexivity ..].
  rewrite IH. destruct (mapX g l) as [[ks| |]|]; reflexivity.
Qed.

Definition le {A} (x x' : res A + xerr) : Prop := forall r, x = okx r -> x' = okx r.
Lemma le_refl {A} (x : res A + xerr) : le x x.
Proof. intros r H. exact H. Qed.
Lemma le_bindx {A B} (x x' : res A + xerr) (f f' : A -> res B + xerr) : le x x' -> (forall a, le (f a) (f' a)) -> le (bindx x f) (bindx x' f').
Proof. intros Hx Hf r H. apply bindx_ok in H as [a [Ea Ef]]. rewrite (Hx a Ea). apply Hf. exact Ef. Qed.
Lemma le_mapX {A B} (f f' : A -> res B + xerr) l : (forall a, le (f a) (f' a)) -> le (mapX f l) (mapX f' l).
Proof. intros Hf. induction l as [|a l IH]; cbn [mapX]; [apply le_refl|]. apply le_bindx; [apply Hf|intros b]. apply le_bindx; [exact IH | intros r'; apply le_refl]. Qed.
Lemma le_fold {A B} (F F' : res A + xerr -> B -> res A + xerr) l : (forall a a' b, le a a' -> le (F a b) (F' a' b)) ->
  forall a a', le a a' -> le (fold_left F l a) (fold_left F' l a').
Proof. intros HF. induction l as [|b l IH]; intros a a' La; [exact La|]. cbn [fold_left]. apply IH. apply HF. exact La. Qed.

(** descends through two terms of the same shape: binds, maps, folds and case distinctions on a common scrutinee; H is the order
    between the calls in which they differ *)
Ltac mono H :=
  repeat first
    [ apply le_refl
    | apply H
    | assumption
    | apply le_mapX; intros ?
    | apply le_bindx; [|intros ?]
    | apply le_fold; [intros ? ? ? ?; cbv beta|]
    | match goal with |- le (match ?x with _ => _ end) (match ?x with _ => _ end) => destruct x end
    | match goal with |- le (if ?c then _ else _) (if ?c then _ else _) => destruct c end ].

(** The loops of the memory read paths, as functions of the evaluator they call *)
Definition evs_of (ev : expr -> res expr + xerr) (x : expr) : res expr + xerr := dox y <- ev x; lift (simpF y).

(** get_mem_overlapping: which of the candidate addresses hold a cell that reaches the address read *)
Definition scan (evs : expr -> res expr + xerr) (m : list (expr * (expr * expr))) (a_val : expr) :=
  fix go (l : list (Z * expr)) : res (list (Z * (expr * expr))) + xerr :=
    match l with
    | [] => okx []
    | (i, x) :: r =>
        match adict_get m x with
        | None => go r
        | Some (cell, v) =>
            dox d <- evs (mk_sub a_val x);
            match d with
            | EInt _ _ dv => dox tl <- go r; if 8 * int32_of dv >=? size v then okx tl else okx ((i, (cell, v)) :: tl)
            | _ => inl (Err EValueError)
            end
        end
    end.
Lemma mem_overlapping_scan fuel s a_val w : mem_overlapping fuel s a_val w =
  (dox tests <- mapX (fun i => dox x <- evs_of (eval_expr fuel s) (mk_add a_val i); okx (i, x)) (range_from (-7) (Z.to_nat (7 + w / 8)));
   scan (evs_of (eval_expr fuel s)) (pool_mem s) a_val tests).
Proof. reflexivity. Qed.
Lemma scan_no_cells evs a_val l : scan evs [] a_val l = okx [].
Proof. induction l as [|[i x] l IH]; [reflexivity | exact IH]. Qed.

(** the read wider than the cell found: consecutive cells are collected until the width is filled *)
Definition walk (evs : expr -> res expr + xerr) (m : list (expr * (expr * expr))) :=
  fix walk (n : nat) (rest : Z) (ptr : expr) (idx : Z) (out : list slot) {struct n} : res expr + xerr :=
    match n with
    | O => inl OutOfFuel
    | S n' =>
        if rest =? 0 then lift (simpF (ECompose out)) else
        let '(val, dsz, vsz) :=
          match adict_get m ptr with
          | None => (EMem ptr 8 None, 8, 8)
          | Some (c, v) => if rest >=? size c then (v, size c, size c) else (getitem v 0 rest, rest, size c)
          end in
        dox ptr' <- evs (EOp "+" [ptr; EInt false 32 (wrap 32 (vsz / 8))]);
        walk n' (rest - dsz) ptr' (idx + dsz) (out ++ [(val, idx, idx + dsz)])%list
    end.

Section Mono.
  Variables (ev ev' : expr -> res expr + xerr) (m : list (expr * (expr * expr))).
  Hypothesis H : forall x, le (ev x) (ev' x).
  Lemma evs_mono x : le (evs_of ev x) (evs_of ev' x).
  Proof. unfold evs_of. mono H. Qed.
  Lemma scan_mono a_val l : le (scan (evs_of ev) m a_val l) (scan (evs_of ev') m a_val l).
  Proof.
    induction l as [|[i x] l IH]; cbn [scan]; [apply le_refl|].
    destruct (adict_get m x) as [[cell v]|]; [|exact IH]. mono evs_mono.
  Qed.
  Lemma walk_mono : forall n rest ptr idx out, le (walk (evs_of ev) m n rest ptr idx out) (walk (evs_of ev') m n rest ptr idx out).
  Proof.
    induction n as [|n IH]; intros rest ptr idx out; cbn [walk]; [apply le_refl|]. destruct (rest =? 0); [apply le_refl|].
    destruct (match adict_get m ptr with Some (c, v) => if rest >=? size c then (v, size c, size c) else (getitem v 0 rest, rest, size c) | None => (EMem ptr 8 None, 8, 8) end) as [[val dsz] vsz].
    apply le_bindx; [apply evs_mono | intros ptr'; apply IH].
  Qed.
End Mono.

(** One unfolding of eval_expr is monotone in the evaluator it calls
    (two fuels f, f' rather than f, S f: cbn then unfolds each side exactly once) *)
Lemma eval_expr_step_mono f f' s : (forall x, le (eval_expr f s x) (eval_expr f' s x)) ->
  forall e, le (eval_expr (S f) s e) (eval_expr (S f') s e).
Proof.
  intros H e. cbn [eval_expr]. mono H.
  (* left over: the two loops of the memory case, inline fixpoints of eval_expr that [walk] and [scan] are convertible with *)
  - apply (walk_mono _ _ (pool_mem s) H).
  - apply (scan_mono _ _ (pool_mem s) H).
Qed.

Theorem eval_expr_fuel_mono : forall f s e, le (eval_expr f s e) (eval_expr (S f) s e).
Proof. induction f as [|f IH]; intros s e; [discriminate|]. apply eval_expr_step_mono. intros x. apply IH. Qed.

(** a result reached with some fuel is reached with any larger fuel, and so is the only one *)
Lemma fuel_le {T} (F : nat -> T) v : (forall f, F f = v -> F (S f) = v) -> forall f f', (f <= f')%nat -> F f = v -> F f' = v.
Proof. intros step f f' L H. induction L as [|m _ IH]; [exact H | apply step; exact IH]. Qed.
Lemma fuel_agree {T A} (F : nat -> T) (ok : A -> T) : (forall a b, ok a = ok b -> a = b) -> (forall r f, F f = ok r -> F (S f) = ok r) ->
  forall f f' r r', F f = ok r -> F f' = ok r' -> r = r'.
Proof.
  intros inj step f f' r r' H H'. apply inj. destruct (Nat.le_ge_cases f f') as [L|L].
  - rewrite <- H'. symmetry. exact (fuel_le F (ok r) (step r) f f' L H).
  - rewrite <- H. exact (fuel_le F (ok r') (step r') f' f L H').
Qed.
Lemma okx_inj {A} (a b : A) : okx a = okx b -> a = b.
Proof. intros H. injection H as <-. reflexivity. Qed.

Corollary eval_expr_fuel_irrelevant : forall f f' s e r, (f <= f')%nat -> eval_expr f s e = okx r -> eval_expr f' s e = okx r.
Proof. intros f f' s e r. exact (fuel_le (fun f => eval_expr f s e) (okx r) (fun f => eval_expr_fuel_mono f s e r) f f'). Qed.
Corollary eval_expr_runs_agree : forall f f' s e r r', eval_expr f s e = okx r -> eval_expr f' s e = okx r' -> r = r'.
Proof. intros f f' s e. exact (fuel_agree (fun f => eval_expr f s e) okx okx_inj (fun r f => eval_expr_fuel_mono f s e r) f f'). Qed.

(** The same for the instruction step: sources, destination addresses and the bookkeeping of overlapping cells all go through eval_expr *)
Lemma get_instr_mod_mono f s affs : le (get_instr_mod f s affs) (get_instr_mod (S f) s affs).
Proof. unfold get_instr_mod. mono (eval_expr_fuel_mono f s). Qed.
Corollary get_instr_mod_fuel_irrelevant : forall f f' s affs r, (f <= f')%nat -> get_instr_mod f s affs = okx r -> get_instr_mod f' s affs = okx r.
Proof. intros f f' s affs r. exact (fuel_le (fun f => get_instr_mod f s affs) (okx r) (fun f => get_instr_mod_mono f s affs r) f f'). Qed.
Lemma substract_mems_mono f s cell cellv baddr bw : le (substract_mems f s cell cellv baddr bw) (substract_mems (S f) s cell cellv baddr bw).
Proof. unfold substract_mems. mono (eval_expr_fuel_mono f s). Qed.
Lemma mem_overlapping_mono f s a w : le (mem_overlapping f s a w) (mem_overlapping (S f) s a w).
Proof.
  rewrite !mem_overlapping_scan. apply le_bindx; [mono (evs_mono _ _ (eval_expr_fuel_mono f s)) | intros tests].
  apply scan_mono, eval_expr_fuel_mono.
Qed.
Theorem eval_instr_mono f s affs : le (eval_instr f s affs) (eval_instr (S f) s affs).
Proof.
  unfold eval_instr. apply le_bindx; [apply get_instr_mod_mono | intros ops]. apply le_fold; [|apply le_refl].
  intros a a' [op v] La. apply le_bindx; [exact La | intros st]. destruct op as [| |addr w sg| | | | |].
  3: { (* a memory destination: the overlapping cells are found and rewritten through the evaluator *)
       apply le_bindx; [apply mem_overlapping_mono | intros ov]. apply le_bindx; [|intros st'; apply le_refl].
       apply le_fold; [|apply le_refl]. intros b b' [off [cell cellv]] Lb. apply le_bindx; [exact Lb | intros st2].
       destruct (adict_get (pool_mem st2) (match cell with EMem ca _ _ => ca | _ => cell end)) as [[cell2 cellv2]|]; [|apply le_refl].
       apply le_bindx; [apply substract_mems_mono | intros diff; apply le_refl]. }
  all: apply le_refl.
Qed.
Corollary eval_instr_fuel_irrelevant : forall f f' s affs r, (f <= f')%nat -> eval_instr f s affs = okx r -> eval_instr f' s affs = okx r.
Proof. intros f f' s affs r. exact (fuel_le (fun f => eval_instr f s affs) (okx r) (fun f => eval_instr_mono f s affs r) f f'). Qed.
