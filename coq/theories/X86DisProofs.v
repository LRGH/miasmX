(** X86DisProofs.v — the decoder model reads a prefix of the stream and nothing else (C10):
    if it accepts a byte string it consumed an initial segment u of it; on u followed by ANY other bytes it returns the same
    instruction; on every proper prefix of u it returns None.  Proved for every stream function of X86Dis.v by composition. *)
From Coq Require Import ZArith List Bool Lia.
From Mx Require Import X86Types X86Dis.
Import ListNotations.
Open Scope list_scope.
Open Scope Z_scope.

Definition stream_ok {A} (f : list Z -> dres (A * list Z)) : Prop :=
  forall bs x r, f bs = DOk (x, r) ->
    exists u, bs = u ++ r /\ (forall e, f (u ++ e) = DOk (x, e)) /\ (forall p q, u = p ++ q -> q <> [] -> f p = DNone).

Lemma ret_ok {A} (x : A) : stream_ok (fun bs => DOk (x, bs)).
Proof.
  intros bs y r H. inversion H; subst. exists []. split; [reflexivity|]. split; [intros; reflexivity|].
  intros p q E NE. symmetry in E. apply app_eq_nil in E as [_ E]. contradiction.
Qed.
Lemma read1_ok : stream_ok read1.
Proof.
  intros [|b bs] x r H; simpl in H; [discriminate|]. inversion H; subst. exists [x]. split; [reflexivity|]. split; [intros; reflexivity|].
  intros p q E NE. destruct p as [|c p]; [reflexivity|]. inversion E as [[E1 E2]]. symmetry in E2. apply app_eq_nil in E2 as [-> E3]. contradiction.
Qed.

(** sequential composition: the continuation, a function of the (result, rest) pair as in every tuple pattern of the model,
    continues on what f left *)
Lemma bind_ok {A B} (f : list Z -> dres (A * list Z)) (G : A * list Z -> dres (B * list Z)) :
  stream_ok f -> (forall a, stream_ok (fun r => G (a, r))) -> stream_ok (fun bs => dbind (f bs) G).
Proof.
  intros Hf Hg bs y r H. destruct (f bs) as [[a r1]| |] eqn:Ef; simpl in H; try discriminate.
  destruct (Hf _ _ _ Ef) as (u1 & E1 & X1 & P1). destruct (Hg a _ _ _ H) as (u2 & E2 & X2 & P2).
  exists (u1 ++ u2). split; [rewrite <- app_assoc, <- E2; exact E1|]. split.
  - intros e. rewrite <- app_assoc, X1. apply X2.
  - (* a proper prefix p of u1 ++ u2 ends inside u1, or is u1 followed by a proper prefix of u2 *)
    intros p q E NE. apply app_eq_app in E as [l [[-> ->]|[-> ->]]].
    + destruct l as [|c l].
      * rewrite app_nil_r in X1. rewrite <- (app_nil_r p), X1. apply (P2 [] u2 eq_refl NE).
      * rewrite (P1 p (c :: l) eq_refl); [reflexivity | discriminate].
    + rewrite X1. apply (P2 l q eq_refl NE).
Qed.

(** a computation that does not touch the stream *)
Lemma fail_ok {A} (d : dres (A * list Z)) : (forall x r, d <> DOk (x, r)) -> stream_ok (fun _ => d).
Proof. intros N bs x r H. exfalso. exact (N _ _ H). Qed.
Lemma none_ok {A} : stream_ok (fun _ => @DNone (A * list Z)).
Proof. apply fail_ok. discriminate. Qed.
Lemma crash_ok {A} c : stream_ok (fun _ => @DCrash (A * list Z) c).
Proof. apply fail_ok. discriminate. Qed.
Lemma pure_bind_ok {B C} (k : dres C) (F : C -> list Z -> dres (B * list Z)) :
  (forall c, stream_ok (F c)) -> stream_ok (fun r => dod c <- k; F c r).
Proof. intros H. destruct k as [c| |]; [apply H | apply none_ok | apply crash_ok]. Qed.
Lemma pure_bind_ok2 {B C} (k : dres C) (F : C -> list Z -> dres (B * list Z)) :
  (forall c, stream_ok (F c)) -> stream_ok (fun r => dbind k (fun c => F c r)).
Proof. exact (pure_bind_ok k F). Qed.
(** post-processing of the result by a stream-free computation *)
Lemma map_ok {A B} (f : list Z -> dres (A * list Z)) (k : A -> dres B) :
  stream_ok f -> stream_ok (fun bs => dod '(a, r) <- f bs; dod b <- k a; DOk (b, r)).
Proof. intros Hf. apply bind_ok; [exact Hf|]. intros a. apply pure_bind_ok. intros b. apply ret_ok. Qed.

Lemma readn_ok n : stream_ok (readn n).
Proof.
  induction n as [|n IH]; simpl; [apply ret_ok|].
  apply bind_ok; [apply read1_ok|]. intros b. apply bind_ok; [exact IH|]. intros l. apply ret_ok.
Qed.

Create HintDb stream.
#[export] Hint Resolve ret_ok none_ok crash_ok read1_ok readn_ok : stream.

Lemma get_afs_ok T mb sm : stream_ok (fun bs => get_afs T bs mb sm).
Proof.
  unfold get_afs. destruct (match sm with Mu16 => _ | _ => _ end) as [[db ubits]|]; [|apply crash_ok].
  apply bind_ok.
  - destruct (nthZ db mb) as [[k|a]|]; auto with stream.
    apply bind_ok; [apply read1_ok|]. intros sb. cbn beta iota.
    destruct (nthZ (t_sib T) k) as [st|]; [|apply crash_ok]. destruct (nthZ st sb); auto with stream.
  - intros a. cbn beta iota.
    assert (R : forall n h, stream_ok (fun bs1 => dod '(l, r) <- readn n bs1; DOk (h l : Z * arg, r))).
    { intros n h. apply bind_ok; [apply readn_ok|]. intros l. apply ret_ok. }
    destruct (af_imm a) as [[|[p|[p|[p|p|]|]|]|p]|]; auto with stream; apply R.
Qed.

Lemma retry_walk_ok : forall fuel l pending lastc, stream_ok (fun bs => retry_walk fuel l pending bs lastc).
Proof.
  induction fuel as [|f IH]; intros l pending lastc; simpl; [apply crash_ok|].
  destruct pending as [|c rest]; [apply ret_ok|].
  destruct (nthZ l c) as [[|m|ch]|]; auto with stream.
  destruct rest as [|c2 rest']; [|apply IH].
  apply bind_ok; [apply read1_ok|]. intros b. apply IH.
Qed.

Lemma walk_ok T : forall fuel l pd rp rb, stream_ok (fun bs => walk T fuel l pd rp rb bs).
Proof.
  induction fuel as [|f IH]; intros l pd rp rb; cbn [walk]; [apply crash_ok|].
  apply bind_ok; [apply read1_ok|]. intros c. cbn beta iota zeta.
  destruct (negb pd && memZ c (t_prefixes T)); [apply IH|].
  assert (R : stream_ok (fun r => dod '(m, c', r') <- retry_walk 32 (t_trie T) (rb ++ [c]) r c; DOk (m, c', ([] : list Z), r'))).
  { apply bind_ok; [apply retry_walk_ok|]. intros [m c']. apply ret_ok. }
  destruct (nthZ l c) as [[|m|ch]|]; auto with stream.
Qed.

Lemma do_dibs_ok T m opmode admode : forall dibs margs dib_out, stream_ok (fun bs => do_dibs T m opmode admode dibs bs margs dib_out).
Proof.
  induction dibs as [|dib rest IH]; intros margs dib_out; cbn [do_dibs]; [apply ret_ok|].
  (* an immediate: n bytes, then a stream-free size computation, then the remaining descriptors *)
  assert (R : forall n (v : list Z -> Z) sgn, stream_ok (fun bs => dod '(l, r) <- readn n bs; dod '(w, v') <- intsize m opmode (v l) sgn;
                do_dibs T m opmode admode rest r margs (dib_out ++ [imm_arg w v']))).
  { intros n v sgn. apply bind_ok; [apply readn_ok|]. intros l. apply pure_bind_ok. intros [w v']. apply IH. }
  destruct ((0 <=? dib) && (dib <=? 5)).
  { destruct (fmt_size _) as [[[n sg] bits]|]; [|apply crash_ok]. apply (R n (fun l => if sg then sext bits (le_val l) else le_val l)). }
  destruct ((dib =? D_imm) || (dib =? D_ims)).
  { cbv zeta. apply pure_bind_ok. intros [[n sg] bits]. apply (R n (fun l => if sg then sext bits (le_val l) else le_val l)). }
  destruct ((dib =? D_im1) || (dib =? D_im3)).
  { apply pure_bind_ok. intros [w v']. apply IH. }
  destruct (dib =? D_rmr); [apply IH|].
  destruct (dib =? D_r_eax).
  { destruct margs; [apply IH|]. destruct (truthy (m_sw m)); apply IH. }
  destruct (dib =? D_mim).
  { apply pure_bind_ok. intros [n bits]. apply bind_ok; [apply readn_ok|]. intros l. cbn beta iota.
    destruct (m_w8 m =? 0); [apply crash_ok | apply IH]. }
  destruct (dib =? D_r_cl); [apply IH|].
  destruct (dib =? D_r_dx); [apply IH|].
  destruct (seg_index dib); [apply IH | apply crash_ok].
Qed.

Lemma dis_modrm_ok T m c rp1 o1 a1 : stream_ok (fun bs => dis_modrm T m c rp1 o1 a1 bs).
Proof.
  unfold dis_modrm. cbv zeta.
  destruct ((0 <=? mn_afs m) && (mn_afs m <=? 7)).
  { apply bind_ok; [apply get_afs_ok|]. intros [re modr]. cbn beta iota.
    apply pure_bind_ok. intros x. destruct (_ && _); auto with stream. }
  destruct (mn_afs m =? 8); [apply ret_ok|].
  destruct ((mn_afs m =? 9) || (mn_afs m =? 10)); [|apply crash_ok].
  destruct (memZ D_rmr (mn_rm m)); [|apply ret_ok].
  apply pure_bind_ok. intros [[[opm adm] swap] reg_cat].
  apply bind_ok; [apply read1_ok|]. intros c2. cbn beta iota.
  apply bind_ok; [apply get_afs_ok|]. intros [re modr]. cbn beta iota.
  repeat match goal with
         | |- stream_ok (fun r => let '(_, _) := ?p in _) => destruct p
         | |- stream_ok (fun r => if ?b then _ else _) => destruct b; [apply none_ok|]
         end.
  apply pure_bind_ok. intros x. apply ret_ok.
Qed.

Lemma dis_body_ok T o : stream_ok (dis_body T o).
Proof.
  unfold dis_body. apply bind_ok; [apply walk_ok|]. intros [[mo c] rp]. cbn beta iota.
  destruct mo as [mid0|]; [|apply none_ok].
  destruct (nthZ (t_mnemos T) mid0) as [m0|]; [|apply crash_ok]. cbv zeta.
  apply pure_bind_ok. intros [[mid m] rp1].
  apply bind_ok; [apply dis_modrm_ok|]. intros [[[margs o2] a2] sw]. cbn beta iota.
  apply bind_ok; [apply do_dibs_ok|]. intros [margs2 dib_out]. apply ret_ok.
Qed.

Lemma app_length_Z (u r : list Z) : Z.of_nat (List.length (u ++ r)) - Z.of_nat (List.length r) = Z.of_nat (List.length u).
Proof. rewrite app_length, Nat2Z.inj_add. lia. Qed.

Lemma dbind_ok {A B} (x : dres A) (f : A -> dres B) r : dbind x f = DOk r -> exists a, x = DOk a /\ f a = DOk r.
Proof. destruct x as [a| |]; try discriminate. exists a. auto. Qed.

Lemma dis_body_len T o bytes k r : dis_body T o bytes = DOk (k, r) -> forall len i, k len = DOk i -> i_len i = len.
Proof.
  unfold dis_body. intros H. apply dbind_ok in H as ([[[mo c] rp] bs1] & _ & H). cbn beta iota in H.
  destruct mo as [mid0|]; try discriminate. destruct (nthZ (t_mnemos T) mid0) as [m0|]; try discriminate. cbv zeta in H.
  apply dbind_ok in H as ([[mid m] rp1] & _ & H). apply dbind_ok in H as ([[[[margs o2] a2] sw] bs2] & _ & H).
  apply dbind_ok in H as ([[margs2 dib_out] bs3] & _ & H). injection H as <- <-. intros len i Hk.
  apply dbind_ok in Hk as (args & _ & Hk). apply dbind_ok in Hk as ([[midf argsf] pxf] & _ & Hk). cbn beta iota in Hk.
  destruct (nthZ (t_mnemos T) midf); inversion Hk; reflexivity.
Qed.

Theorem dis_reads_a_prefix T o bytes i : dis_core T o bytes = DOk i ->
  exists u r, bytes = u ++ r /\ i_len i = Z.of_nat (List.length u) /\
    (forall e, dis_core T o (u ++ e) = DOk i) /\
    (forall p q, u = p ++ q -> q <> [] -> dis_core T o p = DNone).
Proof.
  unfold dis_core. intros H. destruct (dis_body T o bytes) as [[k bs3]| |] eqn:E; simpl in H; try discriminate.
  destruct (dis_body_ok T o _ _ _ E) as (u & -> & X & P).
  rewrite app_length_Z in H. exists u, bs3. split; [reflexivity|]. split; [exact (dis_body_len T o _ _ _ E _ _ H)|]. split.
  - intros e. rewrite X. simpl. rewrite app_length_Z. exact H.
  - intros p q Ep Nq. rewrite (P p q Ep Nq). reflexivity.
Qed.

Lemma dis_some T bytes i : dis T bytes = OSome i -> dis_core T Mu32 bytes = DOk i.
Proof. unfold dis. destruct (dis_core T Mu32 bytes); intros H; inversion H; reflexivity. Qed.

(** no over-read: the accepted instruction is determined by its own bytes; whatever follows is irrelevant *)
Theorem dis_no_over_read T bytes i : dis T bytes = OSome i ->
  0 <= i_len i <= Z.of_nat (List.length bytes) /\
  forall e, dis T (firstn (Z.to_nat (i_len i)) bytes ++ e) = OSome i.
Proof.
  intros H. apply dis_some, dis_reads_a_prefix in H as (u & r & -> & L & X & _).
  split; [rewrite L, app_length, Nat2Z.inj_add; lia|].
  intros e. unfold dis. rewrite L, Nat2Z.id, firstn_app, firstn_all, Nat.sub_diag, firstn_O, app_nil_r, X. reflexivity.
Qed.

(** truncation: every proper prefix of an accepted instruction is rejected with None (never a crash, never another instruction) *)
Theorem dis_truncation T bytes i : dis T bytes = OSome i ->
  forall n, (n < Z.to_nat (i_len i))%nat -> dis T (firstn n bytes) = ONone.
Proof.
  intros H n Hn. apply dis_some, dis_reads_a_prefix in H as (u & r & -> & L & _ & P).
  rewrite L, Nat2Z.id in Hn. unfold dis.
  assert (F : firstn n (u ++ r) = firstn n u) by (rewrite firstn_app; replace (n - List.length u)%nat with O by lia; simpl; apply app_nil_r).
  rewrite F. rewrite (P (firstn n u) (skipn n u)); [reflexivity | symmetry; apply firstn_skipn|].
  intros Z0. apply (f_equal (@List.length Z)) in Z0. rewrite skipn_length in Z0. simpl in Z0. lia.
Qed.
