(** AsmProofs.v — immediates and displacements are never silently truncated or sign-changed (C02), and what is emitted reads back (C03). *)
From Coq Require Import ZArith List Bool Lia.
From Mx Require Import Expr Bits Asm.
Import ListNotations.
Open Scope Z_scope.

(** The two's complement reading [sgnw w] picks the representative in [-2^(w-1), 2^(w-1)): it is [Expr.sgn] *)
Lemma sgnw_sgn w v : 0 < w -> sgnw w v = sgn w v.
Proof.
  intros Hw. destruct (pow_split w Hw) as [P Q]. unfold sgnw, sgn, wrap. cbv zeta.
  destruct (Z.ltb_spec (v mod 2 ^ w) (2 ^ (w - 1))), (Z.geb_spec (2 * (v mod 2 ^ w)) (2 ^ w)); lia.
Qed.
Lemma sgnw_range w v : 0 < w -> - 2 ^ (w - 1) <= sgnw w v < 2 ^ (w - 1).
Proof. intros Hw. rewrite sgnw_sgn by exact Hw. apply sgn_range, Hw. Qed.
Lemma sgnw_congr w v : 0 < w -> (sgnw w v) mod 2 ^ w = v mod 2 ^ w.
Proof. intros Hw. rewrite sgnw_sgn by exact Hw. apply sgn_congr, Hw. Qed.
Lemma sgnw_id w v : 0 < w -> - 2 ^ (w - 1) <= v < 2 ^ (w - 1) -> sgnw w v = v.
Proof. intros Hw R. rewrite sgnw_sgn by exact Hw. apply sgn_id; assumption. Qed.
(** [sgnw n] reads only the low n bits: a wider reading in between changes nothing *)
Lemma sgnw_sgnw n m v : 0 < n <= m -> sgnw n (sgnw m v) = sgnw n v.
Proof.
  intros H. unfold sgnw at 1 3. rewrite <- (mod_mod_pow (sgnw m v) n m), sgnw_congr, mod_mod_pow by lia. reflexivity.
Qed.
Lemma sgnw_narrow n m v : 0 < n <= m -> - 2 ^ (n - 1) <= sgnw m v < 2 ^ (n - 1) -> sgnw n v = sgnw m v.
Proof. intros H R. rewrite <- (sgnw_sgnw n m v) by exact H. apply sgnw_id; [lia | exact R]. Qed.

Definition in_range (k : ikind) (r : Z) : Prop :=
  if is_signed k then - 2 ^ (bits k - 1) <= r < 2 ^ (bits k - 1) else 0 <= r < 2 ^ bits k.

(** the two shapes every branch of [check_imm_size] is made of *)
Lemma range_test lo x hi : (lo <=? x) && (x <? hi) = true <-> lo <= x < hi.
Proof. rewrite andb_true_iff, Z.leb_le, Z.ltb_lt. tauto. Qed.
Lemma if_some {A} (c : bool) (x y : A) : (if c then Some x else None) = Some y -> c = true /\ y = x.
Proof. destruct c; [intros H; injection H; auto | discriminate]. Qed.

Lemma wrap_fits w v : 0 <= w -> 0 <= v mod 2 ^ w < 2 ^ w /\ (v mod 2 ^ w) mod 2 ^ w = v mod 2 ^ w.
Proof. intros H. assert (0 < 2 ^ w) by (apply Z.pow_pos_nonneg; lia). split; [apply Z.mod_pos_bound | apply Z.mod_mod]; lia. Qed.

(** A form is offered only for a value that it represents: the returned field value is in the range of the form and is
    congruent to the requested value modulo the width of the field. *)
Theorem check_imm_fits v is16 k r : check_imm_size v is16 k = Some r -> in_range k r /\ r mod 2 ^ bits k = v mod 2 ^ bits k.
Proof.
  assert (S : forall w, 0 < w -> - 2 ^ (w - 1) <= sgnw w v < 2 ^ (w - 1) /\ sgnw w v mod 2 ^ w = v mod 2 ^ w)
    by (split; [apply sgnw_range | apply sgnw_congr]; assumption).
  unfold check_imm_size, in_range. destruct k; cbn [is_signed bits]; intros H.
  - apply if_some in H as [_ ->]. exact (wrap_fits 8 v ltac:(lia)).
  - destruct (_ && _) in H; [injection H as <- | apply if_some in H as [_ ->]; rewrite sgnw_sgnw by lia]; apply S; lia.
  - apply if_some in H as [_ ->]. exact (wrap_fits 16 v ltac:(lia)).
  - apply if_some in H as [_ ->]. apply S. lia.
  - apply if_some in H as [_ ->]. exact (wrap_fits 32 v ltac:(lia)).
  - apply if_some in H as [_ ->]. apply S. lia.
Qed.

(** No sign change at the operand width: for the sign-extended short forms and the full-width forms the field, extended the way
    the processor extends it, is the requested value modulo 2^32 (plain integer immediates). *)
Theorem check_imm_no_sign_change v k r : k <> U08 -> check_imm_size v false k = Some r -> r mod 2 ^ 32 = v mod 2 ^ 32.
Proof.
  intros NU. unfold check_imm_size. destruct k; try congruence; rewrite ?andb_false_r; intros H; apply if_some in H as [E ->].
  - rewrite (sgnw_narrow 8 32) by (lia || apply range_test, E). apply sgnw_congr. lia.
  - apply range_test in E. rewrite (Z.mod_small v 65536) by exact E. reflexivity.
  - rewrite (sgnw_narrow 16 32) by (lia || apply range_test, E). apply sgnw_congr. lia.
  - apply Z.mod_mod. discriminate.
  - apply sgnw_congr. lia.
Qed.

(** the unsigned byte form: exact on 0..255, and the two's-complement byte of -128..-1 *)
Theorem check_imm_u08 v is16 r : check_imm_size v is16 U08 = Some r -> -128 <= v < 256 /\ (0 <= v -> r = v) /\ (v < 0 -> r = v + 256).
Proof.
  unfold check_imm_size. intros H. apply if_some in H as [E ->]. apply range_test in E.
  split; [exact E|]. split; intros; [apply Z.mod_small; lia|].
  rewrite <- (Z.mod_add v 1 256) by lia. apply Z.mod_small. lia.
Qed.
(** a value outside the range of a form excludes the form *)
Theorem check_imm_excludes v : (v < -128 \/ 256 <= v -> check_imm_size v false U08 = None) /\
                               (v < 0 \/ 65536 <= v -> check_imm_size v false U16 = None) /\
                               (v < - 2 ^ 32 \/ 2 ^ 32 <= v -> check_imm_size v false U32 = None) /\
                               (128 <= v < 2 ^ 32 - 128 -> check_imm_size v false S08 = None).
Proof.
  unfold check_imm_size. rewrite andb_false_r.
  repeat split; intros H; (destruct (_ && _) eqn:E; [apply range_test in E; exfalso | reflexivity]); try lia.
  unfold sgnw in E. change (2 ^ 32) with 4294967296 in *. change (2 ^ (32 - 1)) with 2147483648 in E.
  rewrite (Z.mod_small v 4294967296) in E by lia. destruct (Z.ltb_spec v 2147483648); lia.
Qed.

(** little-endian emission reads back *)
Lemma le_roundtrip n v : 0 <= v < 256 ^ Z.of_nat n -> le_value (le_bytes n v) = v.
Proof.
  revert v. induction n as [|n IH]; intros v R.
  - simpl in *. lia.
  - cbn [le_bytes le_value]. rewrite IH.
    + pose proof (Z.div_mod v 256 ltac:(lia)). lia.
    + rewrite Nat2Z.inj_succ, Z.pow_succ_r in R by lia. split; [apply Z.div_pos; lia | apply Z.div_lt_upper_bound; lia].
Qed.
Lemma le_bytes_length n v : List.length (le_bytes n v) = n.
Proof. revert v. induction n; intros; simpl; auto. Qed.
Lemma le_bytes_are_bytes n v : Forall (fun b => 0 <= b < 256) (le_bytes n v).
Proof. revert v. induction n; intros; simpl; constructor; auto. apply Z.mod_pos_bound. lia. Qed.

Theorem emit_read k r : in_range k r -> read k (emit k r) = r.
Proof.
  unfold in_range, read, emit. intros R.
  assert (B : 0 < bits k) by (destruct k; simpl; lia).
  assert (E : 256 ^ Z.of_nat (Z.to_nat (bits k / 8)) = 2 ^ bits k) by (destruct k; reflexivity).
  rewrite le_roundtrip by (rewrite E; apply Z.mod_pos_bound; apply Z.pow_pos_nonneg; lia).
  destruct (is_signed k) eqn:S.
  - assert (sgnw (bits k) (r mod 2 ^ bits k) = sgnw (bits k) r) as ->.
    { unfold sgnw. rewrite Z.mod_mod by (apply Z.pow_nonzero; lia). reflexivity. }
    apply sgnw_id; assumption.
  - apply Z.mod_small. assumption.
Qed.
Theorem emit_length k r : List.length (emit k r) = Z.to_nat (bits k / 8).
Proof. apply le_bytes_length. Qed.

(** a value accepted for a form is emitted and read back as the field value that represents it *)
Corollary check_emit_read v is16 k r : check_imm_size v is16 k = Some r -> read k (emit k r) = r /\ r mod 2 ^ bits k = v mod 2 ^ bits k.
Proof. intros H. destruct (check_imm_fits v is16 k r H) as [R C]. split; [apply emit_read; exact R | exact C]. Qed.
