(** EvalAbsProofs.v — symbolic evaluation is sound substitution (C06), for register-only states (no symbolic memory writes) and
    well-formed expressions without concatenations (SimpProofs.wf false): the result of eval_expr, evaluated in a concrete state
    rho, equals the argument evaluated in the state where every bound identifier takes the value of its binding in rho. *)
From Coq Require Import ZArith List Bool String Lia.
From Mx Require Import Expr ExprProofs Bits Simp SimpProofs EvalAbs FuelProofs.
Import ListNotations.
Open Scope list_scope.
Open Scope Z_scope.

Section ConstOps.
  Variable iota : string -> list Z -> Z.
  (** deal_op on in-range unsigned constants computes the operator's meaning *)
  Lemma const_op_value op w vs r : frag_op op = true -> 0 < w -> Forall (fun v => 0 <= v) vs -> hd 0 vs < 2 ^ w ->
    match opk_of op with OShl | OShr | OSar | ORol | ORor | OEq => List.length vs = 2%nat | OParity => List.length vs = 1%nat | _ => True end ->
    eval_const_op op w vs = Ok r -> wrap w r = eval_op iota op w vs.
  Proof.
    unfold frag_op, eval_const_op, eval_op. intros F Hw Nn Hd La H. destruct (opk_of op); try discriminate.
    (* goals come in the order of opk's constructors: + * ^ & | - << >> a>> <<< >>> == parity.
       7-11, the shifts and rotations, take a value a and a count c, and mask a, which is in range already *)
    7-11: (destruct vs as [|a [|c [|? ?]]]; try discriminate La;
          destruct (mymaxuint_ok w); [|discriminate]; injection H as <-;
          apply Forall_cons_iff in Nn as [Pa Nn]; apply Forall_cons_iff in Nn as [Pc _]; cbn [hd] in Hd;
          rewrite ?(land_mask_small w a), ?(wrap_small w a) by lia).
    (* 10-11, both rotations: the mask on one half of the result is absorbed by the reduction of the whole *)
    10-11: (replace (w =? 0) with false by (symmetry; apply Z.eqb_neq; lia); unfold rol, ror; cbv zeta; rewrite land_mask by lia;
            apply wrap_eq_bits; [lia|]; intros i Hi; rewrite !Z.lor_spec, wrap_bits by lia;
            replace (i <? w) with true by (symmetry; apply Z.ltb_lt; lia); reflexivity).
    (* + * ^ & |: the fold from the unit is the fold from the first operand *)
    1-5: (destruct vs as [|v l]; inversion H; cbn [fold_left]; rewrite ?Z.add_0_l, ?Z.mul_1_l, ?Z.lxor_0_l, ?Z.lor_0_l; reflexivity).
    - destruct vs as [|a [|b [|c l]]]; inversion H; reflexivity.
    - rewrite (shiftl_sat w (w + 64)), (shiftl_sat w w) by lia. reflexivity.
    - rewrite (shiftr_sat w (w + 64)), (shiftr_sat w w) by lia. reflexivity.
    - pose proof (sgn_range w a Hw) as B. rewrite (sar_sat w (w + 64)), (sar_sat w w) by lia. reflexivity.
    - destruct vs as [|a [|b [|? ?]]]; try discriminate. inversion H; subst r. destruct (a =? b); [reflexivity | apply wrap_0].
    - destruct vs as [|a [|? ?]]; try discriminate. inversion H; subst r. reflexivity.
  Qed.
End ConstOps.
Lemma op_ok_arity op args : op_ok op args = true ->
  match opk_of op with OShl | OShr | OSar | ORol | ORor | OEq => List.length args = 2%nat | OParity => List.length args = 1%nat | _ => True end.
Proof.
  unfold op_ok. destruct args as [|a r]; [discriminate|]. intros H. apply andb_true_iff in H as [H0 H]. apply andb_true_iff in H0 as [_ Ao].
  destruct (opk_of op) eqn:Ek; try exact I; try (apply Nat.eqb_eq; exact H);
    (unfold args_ok, is_shift, is_rot in Ao; rewrite Ek in Ao; unfold rot_args_ok in Ao; destruct r as [|c [|? ?]]; try discriminate; reflexivity).
Qed.

Section Subst.
  (** a signature for identifier names: width, is_reg, is_term — every identifier of the trees considered conforms to it *)
  Variable Sig : string -> Z * bool * bool.
  Definition IdQ (n : string) (w : Z) (r t : bool) : bool :=
    (w =? fst (fst (Sig n))) && Bool.eqb r (snd (fst (Sig n))) && Bool.eqb t (snd (Sig n)).
  Notation wfq := (wf false IdQ).

  Variable s : pool.
  Definition binding_ok (kv : expr * expr) : Prop :=
    exists n w r, fst kv = EId n w r false /\ IdQ n w r false = true /\ wfq (snd kv) = true /\ size (snd kv) = w.
  Hypothesis pool_no_mem : pool_mem s = [].
  Hypothesis pool_ok : Forall binding_ok (pool_id s).

  Variable rho : string -> Z.
  Variable mu : Z -> Z.
  Variable iota : string -> list Z -> Z.
  Notation ev := (eval rho mu iota).

  Fixpoint lookup_name (d : list (expr * expr)) (n : string) : option expr :=
    match d with
    | [] => None
    | (EId n' _ _ _, v) :: r => if (n' =? n)%string then Some v else lookup_name r n
    | _ :: r => lookup_name r n
    end.
  (** the state after substitution: a bound identifier denotes the value of its binding *)
  Definition rho' (n : string) : Z := match lookup_name (pool_id s) n with Some v => ev v | None => rho n end.
  Notation ev' := (eval rho' mu iota).

  Definition rel (x x' : expr) : Prop := wfq x' = true /\ size x' = size x /\ ev x' = ev' x.

  Lemma IdQ_inv n w r t : IdQ n w r t = true -> Sig n = (w, r, t).
  Proof.
    unfold IdQ. intros H. apply andb_true_iff in H as [H T]. apply andb_true_iff in H as [W R].
    apply Z.eqb_eq in W. apply Bool.eqb_prop in R, T. destruct (Sig n) as [[w0 r0] t0]. simpl in *. subst. reflexivity.
  Qed.

  (** the pool's dictionary look-up, by ==, is the look-up by name: names determine width and flags *)
  Lemma lookup_get n w r t : IdQ n w r t = true -> adict_get (pool_id s) (EId n w r t) = if t then None else lookup_name (pool_id s) n.
  Proof.
    intros Q. pose proof (IdQ_inv _ _ _ _ Q) as Sn. generalize (pool_id s) pool_ok. induction 1 as [|kv d Hkv _ IH]; [destruct t; reflexivity|].
    destruct Hkv as (n' & w' & r' & Ek & Q' & _ & _). destruct kv as [k v]. simpl in Ek. subst k.
    pose proof (IdQ_inv _ _ _ _ Q') as Sn'. cbn [adict_get lookup_name].
    change (expr_eqb (EId n' w' r' false) (EId n w r t)) with ((n' =? n)%string && (w' =? w) && Bool.eqb r' r).
    destruct (n' =? n)%string eqn:En.
    - apply String.eqb_eq in En. subst n'. rewrite Sn in Sn'. inversion Sn'; subst. rewrite Z.eqb_refl, Bool.eqb_reflx. reflexivity.
    - cbn [andb]. exact IH.
  Qed.
  Lemma lookup_binding n v : lookup_name (pool_id s) n = Some v -> exists w r, IdQ n w r false = true /\ wfq v = true /\ size v = w.
  Proof.
    generalize (pool_id s) pool_ok. induction 1 as [|kv d Hkv _ IH]; [discriminate|].
    destruct Hkv as (n' & w' & r' & Ek & Q' & Wv & Sv). destruct kv as [k v0]. simpl in *. subst k.
    destruct (n' =? n)%string eqn:En; [|exact IH]. intros H. inversion H; subst v0. apply String.eqb_eq in En. subst n'. eauto.
  Qed.

  Lemma id_rel n w r t : wfq (EId n w r t) = true ->
    rel (EId n w r t) (match (if t then None else lookup_name (pool_id s) n) with Some v => v | None => EId n w r t end).
  Proof.
    intros W. destruct (proj1 (wf_id_iff _ _ _ _ _ _) W) as [_ Q].
    assert (E' : ev' (EId n w r t) = wrap w (match lookup_name (pool_id s) n with Some v => ev v | None => rho n end)) by reflexivity.
    destruct (lookup_name (pool_id s) n) as [v|] eqn:L.
    - (* the binding's name fixes the identifier's width and that it is not terminal *)
      destruct (lookup_binding _ _ L) as (w2 & r2 & Q2 & Wv & Sv). apply IdQ_inv in Q, Q2. rewrite Q in Q2. injection Q2 as -> _ ->.
      split; [exact Wv|]. split; [exact Sv|]. rewrite E'. symmetry. apply wrap_small. rewrite <- Sv. exact (proj2 (wf_range false IdQ rho mu iota v Wv)).
    - replace (if t then None else None) with (@None expr) by (destruct t; reflexivity). split; [exact W|]. split; [reflexivity | rewrite E'; reflexivity].
  Qed.

  (** constant operands: eval_op_consts agrees with the operator's meaning *)
  Notation mkint := (fun '(sg, w, v) => EInt sg w v).
  Notation payload := (fun '(_, _, v) => v).
  Lemma ints_of_spec args ints : ints_of args = Some ints -> args = map mkint ints.
  Proof.
    revert ints. induction args as [|a args IH]; intros ints H; simpl in H; [inversion H; reflexivity|].
    destruct a; try discriminate. destruct (ints_of args) as [l|]; try discriminate. inversion H; subst. simpl. rewrite (IH l eq_refl). reflexivity.
  Qed.
  (** the values of in-range unsigned constants are their payloads *)
  Lemma ints_values (ints : list (bool * Z * Z)) : forallb wfq (map mkint ints) = true ->
    map ev (map mkint ints) = map payload ints /\ Forall (fun v => 0 <= v) (map payload ints).
  Proof.
    induction ints as [|[[sg w] v] l IH]; cbn [map forallb]; intros W; [split; [reflexivity | constructor]|].
    apply andb_true_iff in W as [W0 Wl]. destruct (wf_int_inv false IdQ rho mu iota _ _ _ W0) as (_ & _ & R & E). destruct (IH Wl) as [E' N].
    split; [rewrite E, E'; reflexivity | constructor; [apply R | exact N]].
  Qed.

  Lemma consts_good op args e' : wfq (EOp op args) = true -> eval_op_consts op args = inl (Ok e') -> good false IdQ rho mu iota (EOp op args) e'.
  Proof.
    intros W H. unfold eval_op_consts in H. destruct (ints_of args) as [ints|] eqn:I; [|injection H as <-; apply good_refl; exact W].
    destruct (negb (in_deal_op op)); [injection H as <-; apply good_refl; exact W|].
    destruct ints as [|[[sg0 w0] v0] rest]; [discriminate|].
    destruct (negb (forallb _ _) && negb (op_size_no_check op)); [discriminate|].
    destruct (negb (uint_class_ok sg0 w0)); [discriminate|].
    apply ints_of_spec in I. subst args. set (ints := (sg0, w0, v0) :: rest) in *.
    pose proof W as W'. cbn [wf] in W'. apply andb_true_iff in W' as [Wl O]. destruct (ints_values ints Wl) as [Evs Nn].
    destruct (op_ok_inv _ _ O) as (a & r & Eargs & F & _). injection Eargs as <- _.
    cbn [map forallb] in Wl. apply andb_true_iff in Wl as [W0 _]. destruct (wf_int_inv false IdQ rho mu iota _ _ _ W0) as (-> & P0 & R0 & _).
    rewrite (opk_match_other (opk_of op)) in H by (unfold frag_op in F; destruct (opk_of op); congruence).
    destruct (negb (forallb _ _)); [discriminate|].
    destruct (eval_const_op op w0 (map payload ints)) as [rv| |] eqn:C; try discriminate. injection H as <-.
    destruct (wf_wrapped_int false IdQ rho mu iota w0 rv P0) as (A & B & Cv).
    assert (Sn : size (EOp op (map mkint ints)) = w0) by (apply (size_op op (EInt false w0 v0)); cbn [size]; clear - P0; lia).
    split; [exact A|]. split; [rewrite B, Sn; reflexivity|]. rewrite Cv, eval_op_node, Sn, Evs.
    pose proof (op_ok_arity _ _ O) as Ar. rewrite map_length in Ar.
    apply (const_op_value iota op w0 _ rv F (proj1 P0) Nn (proj2 R0)); [rewrite map_length; exact Ar | exact C].
  Qed.

  Lemma rel_after_good x y y' : rel x y -> good false IdQ rho mu iota y y' -> rel x y'.
  Proof. intros (A & B & C) (A' & B' & C'). split; [exact A'|]. split; congruence. Qed.
  Lemma rel_before_good x x1 y : good false IdQ rho' mu iota x x1 -> rel x1 y -> rel x y.
  Proof. intros (A & B & C) (A' & B' & C'). split; [exact A'|]. split; congruence. Qed.
  Lemma simpF_good r0 m0 i0 y y' : wfq y = true -> simpF y = Ok y' -> good false IdQ r0 m0 i0 y y'.
  Proof. intros W H. exact (simp_good false IdQ r0 m0 i0 _ y y' W H). Qed.
  Lemma simpF_rel x y y' : rel x y -> lift (simpF y) = okx y' -> rel x y'.
  Proof. intros R H. injection H as H. apply (rel_after_good x y y' R). apply simpF_good; [apply R | exact H]. Qed.

  (** a conditional whose parts are related: the evaluator picks an arm when the condition has become a constant *)
  Lemma cond_rel c a b c' a' b' : rel c c' -> rel a a' -> rel b b' -> size a = size b ->
    rel (ECond c a b) (match c' with EInt _ _ v => if v =? 0 then b' else a' | _ => ECond c' a' b' end).
  Proof.
    intros (Wc & Sc & Ec) (Wa & Sa & Ea) (Wb & Sb & Eb) Sab.
    assert (Gen : rel (ECond c a b) (ECond c' a' b')).
    { split; [apply wf_cond_iff; repeat split; congruence|]. split; [exact Sa|]. cbn [eval]. rewrite Ec, Ea, Eb. reflexivity. }
    destruct c' as [sgc wc vc| | | | | | |]; try exact Gen.
    destruct (wf_int_inv false IdQ rho mu iota _ _ _ Wc) as (_ & _ & _ & Ev0). rewrite Ev0 in Ec.
    destruct (vc =? 0) eqn:Z0; (split; [assumption|]; split; [cbn [size]; congruence|]; cbn [eval]; rewrite <- Ec, Z0; assumption).
  Qed.
  (** a slice of a related operand, as eval_ExprSlice rebuilds it *)
  Lemma slice_rel a a' lo hi r : wfq (ESlice a lo hi) = true -> rel a a' ->
    match a' with
    | EMem _ w _ => okx (if (lo =? 0) && (hi =? w) then a' else ESlice a' lo hi)
    | EInt _ _ _ => lift (simpF (ESlice a' lo hi))
    | _ => okx (ESlice a' lo hi)
    end = okx r -> rel (ESlice a lo hi) r.
  Proof.
    intros W (Wa' & Sa' & Eva) H. destruct (proj1 (wf_slice_iff false IdQ _ _ _) W) as (Wa & L0 & Llh & Lhs).
    assert (Gen : rel (ESlice a lo hi) (ESlice a' lo hi)).
    { split; [apply wf_slice_iff; rewrite Sa'; auto|]. split; [reflexivity | cbn [eval]; rewrite Eva; reflexivity]. }
    destruct a' as [sgi wi vi| |am wm sm| | | | |]; try (injection H as <-; exact Gen).
    - exact (simpF_rel _ _ _ Gen H).
    - destruct ((lo =? 0) && (hi =? wm)) eqn:Full; injection H as <-; [|exact Gen].
      (* the whole cell: the slice is dropped *)
      apply andb_true_iff in Full as [F1 F2]. apply Z.eqb_eq in F1, F2. subst lo hi. cbn [size] in Sa'.
      split; [exact Wa'|]. split; [cbn [size]; lia|]. rewrite Eva. cbn [eval]. rewrite Z.shiftr_0_r, Z.sub_0_r. symmetry. apply wrap_small. rewrite Sa'. exact (proj2 (wf_range false IdQ rho' mu iota a Wa)).
  Qed.

  Lemma evs_rel f x y : (forall x y, wfq x = true -> eval_expr f s x = okx y -> rel x y) ->
    wfq x = true -> evs_of (eval_expr f s) x = okx y -> rel x y.
  Proof. intros IH W H. apply bindx_ok in H as (y0 & E0 & Es). exact (simpF_rel x y0 y (IH x y0 W E0) Es). Qed.
  Lemma mapX_rel f args args' : (forall x y, wfq x = true -> eval_expr f s x = okx y -> rel x y) ->
    Forall (fun a => wfq a = true) args -> mapX (evs_of (eval_expr f s)) args = okx args' -> Forall2 rel args args'.
  Proof.
    intros IH W H. apply mapX_ok in H. induction H as [|a b l l' Hab _ IHl]; [constructor|].
    apply Forall_cons_iff in W as [Wa Wl]. constructor; [exact (evs_rel f a b IH Wa Hab) | exact (IHl Wl)].
  Qed.

  Theorem eval_expr_rel : forall fuel e e', wfq e = true -> eval_expr fuel s e = okx e' -> rel e e'.
  Proof.
    induction fuel as [|f IH]; intros e e' W H; [discriminate|].
    revert H. cbn [eval_expr]. destruct (is_term e) eqn:T.
    { intros H. injection H as <-. destruct e as [|n w r t| | | | | |]; try discriminate. cbn [is_term] in T. subst t. exact (id_rel n w r true W). }
    intros H. apply bindx_ok in H as (e1 & V & H). injection V as V.
    assert (G1 : good false IdQ rho' mu iota e e1).
    { apply (visit_good false IdQ rho' mu iota simpF); [| |exact W | exact V]; [intros x x' Wx Hx; apply simpF_good; assumption|].
      intros sg w v x' Hx. unfold simpF in Hx. cbn [simp visitM] in Hx. apply (loop_int _ _ _ _ _ _ Hx). }
    apply (rel_before_good e e1 e' G1). destruct G1 as (W1 & _ & _). clear V W T e. revert H.
    destruct e1 as [sg w v|n w r t|addr w sg|op args|c a b|sa lo hi| |]; try discriminate W1; intros H.
    - injection H as <-. split; [exact W1|]. split; reflexivity.
    - injection H as <-. rewrite (lookup_get _ _ _ _ (proj2 (proj1 (wf_id_iff _ _ _ _ _ _) W1))). apply id_rel. exact W1.
    - (* memory cell: no cell is stored, so neither look-up hits and the overlap scan finds nothing *)
      apply wf_mem_iff in W1 as (Wa & Pw & _).
      apply bindx_ok in H as (a_val & Ea & H). destruct (evs_rel f _ _ IH Wa Ea) as (Wv & Sv & Ev).
      unfold pool_get_mem in H. rewrite pool_no_mem in H. cbn [adict_get] in H.
      apply bindx_ok in H as (tests & _ & H). apply bindx_ok in H as (ov & Eov & H).
      change (scan (evs_of (eval_expr f s)) [] a_val tests = okx ov) in Eov. rewrite scan_no_cells in Eov. injection Eov as <-.
      cbn [bindx okx] in H. injection H as <-.
      split; [apply wf_mem_iff; auto|]. split; [reflexivity|]. cbn [eval]. rewrite Ev. reflexivity.
    - apply bindx_ok in H as (args' & M & H). destruct (proj1 (wf_op_iff _ _ _ _) W1) as [Wl _].
      assert (R : rel (EOp op args) (EOp op args')) by (apply op_node_rel; [exact W1 | exact (mapX_rel f args args' IH Wl M)]). exact (rel_after_good _ _ _ R (consts_good op args' e' (proj1 R) H)).
    - destruct (proj1 (wf_cond_iff _ _ _ _ _) W1) as (Wc & Wa & Wb & Sab).
      apply bindx_ok in H as (c' & Ec & H). apply bindx_ok in H as (a' & Ea & H). apply bindx_ok in H as (b' & Eb & H).
      replace e' with (match c' with EInt _ _ v => if v =? 0 then b' else a' | _ => ECond c' a' b' end) by (destruct c'; injection H as <-; reflexivity).
      apply cond_rel; [apply (IH c) | apply (IH a) | apply (IH b) | exact Sab]; assumption.
    - apply bindx_ok in H as (a' & Ea & H). destruct (proj1 (wf_slice_iff false IdQ _ _ _) W1) as (Wsa & _).
      exact (slice_rel sa a' lo hi e' W1 (evs_rel f _ _ IH Wsa Ea) H).
  Qed.
End Subst.

Theorem eval_expr_is_substitution : forall (Sig : string -> Z * bool * bool) (s : pool),
  pool_mem s = [] -> Forall (binding_ok Sig) (pool_id s) ->
  forall fuel e e', wf false (IdQ Sig) e = true -> eval_expr fuel s e = inl (Ok e') ->
  wf false (IdQ Sig) e' = true /\ size e' = size e /\
  forall rho mu iota, eval rho mu iota e' = eval (rho' s rho mu iota) mu iota e.
Proof.
  intros Sig s Hm Hp fuel e e' W H.
  destruct (eval_expr_rel Sig s Hm Hp (fun _ => 0) (fun _ => 0) (fun _ _ => 0) fuel e e' W H) as (A & B & _).
  split; [exact A|]. split; [exact B|]. intros rho mu iota. apply (eval_expr_rel Sig s Hm Hp rho mu iota fuel e e' W H).
Qed.
