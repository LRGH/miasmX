(** SemCCProofs.v — soundness of the condition-code checkers of SemCC.v: a flag-only expression has, in EVERY state, memory and
    operator interpretation, the value it has under the valuation of the five flags read off that state; hence a check over the 32
    valuations decides the condition for all states. *)
From Coq Require Import ZArith List Bool String Lia.
From Mx Require Import Expr ExprProofs Bits Sem SemProofs SemCC.
Import ListNotations.
Open Scope Z_scope.

Lemma op_interp_eval iota iota' op w vs : op_interp op (List.length vs) = true -> eval_op iota op w vs = eval_op iota' op w vs.
Proof.
  unfold op_interp, eval_op. destruct (opk_of op); try discriminate; try reflexivity.
  - destruct vs; [discriminate | reflexivity].
  - destruct vs as [|a [|b [|c l]]]; try discriminate; reflexivity.
Qed.

Section FlagCoincidence.
  Variables rho rho' : string -> Z.
  Variables mu mu' : Z -> Z.
  Variables iota iota' : string -> list Z -> Z.
  Hypothesis Hfl : forall n, is_flag n = true -> wrap 1 (rho n) = wrap 1 (rho' n).
  Lemma flagexp_coincide : forall e, flagexp e = true -> eval rho mu iota e = eval rho' mu' iota' e.
  Proof.
    induction e using expr_ind'; intros F; simpl in F; try discriminate.
    - reflexivity.
    - apply andb_true_iff in F as [W N]. apply Z.eqb_eq in W. subst w. simpl. apply Hfl. exact N.
    - apply andb_true_iff in F as [I A]. rewrite !eval_op_node.
      assert (M : map (eval rho mu iota) args = map (eval rho' mu' iota') args).
      { clear I. induction H as [|a l Ha Hl IH]; [reflexivity|]. simpl in A. apply andb_true_iff in A as [A1 A2]. simpl. rewrite (Ha A1), (IH A2). reflexivity. }
      rewrite M. apply op_interp_eval. rewrite map_length. exact I.
    - apply andb_true_iff in F as [F F3]. apply andb_true_iff in F as [F1 F2]. simpl. rewrite (IHe1 F1), (IHe2 F2), (IHe3 F3). reflexivity.
    - simpl. rewrite (IHe F). reflexivity.
    - rewrite !eval_compose. f_equal.
      induction H as [|s l Hs Hl IH]; [reflexivity|]. simpl in F. apply andb_true_iff in F as [F1 F2]. simpl. unfold slot_val at 1 3. rewrite (Hs F1), (IH F2). reflexivity.
  Qed.
End FlagCoincidence.

Lemma wrap1_b2z b : wrap 1 (b2z b) = b2z b.
Proof. destruct b; reflexivity. Qed.
Lemma frho_fl rho n : is_flag n = true -> wrap 1 (rho n) = wrap 1 (frho (fl_of rho) n).
Proof.
  unfold is_flag, frho, fl_of.
  repeat match goal with |- context [(n =? ?s)%string] => destruct (String.eqb_spec n s) as [->|_]; [intros _; rewrite wrap1_b2z; apply wrap1_odd|] end.
  discriminate.
Qed.
Lemma in_bools b : In b bools.
Proof. destruct b; cbn; tauto. Qed.
Lemma in_all32 v : In v all32.
Proof.
  destruct v as [[[[a b] c] d] e]. unfold all32.
  repeat (apply in_flat_map; eexists; split; [apply in_bools|]). apply in_map, in_bools.
Qed.

Lemma feval_any rho mu iota e : flagexp e = true -> eval rho mu iota e = feval (fl_of rho) e.
Proof. intros F. unfold feval. apply flagexp_coincide; [|exact F]. intros n Hn. apply frho_fl. exact Hn. Qed.

Lemma cond_spec_sound c p : cond_spec c p = true -> forall rho mu iota, (eval rho mu iota c =? 0) = negb (p (fl_of rho)).
Proof.
  unfold cond_spec. intros H rho mu iota. apply andb_true_iff in H as [F A]. rewrite forallb_forall in A.
  specialize (A (fl_of rho) (in_all32 _)). apply eqb_prop in A. rewrite (feval_any rho mu iota c F). rewrite <- A. rewrite negb_involutive. reflexivity.
Qed.
Lemma val_spec_sound s f : val_spec s f = true -> forall rho mu iota, eval rho mu iota s = f (fl_of rho).
Proof.
  unfold val_spec. intros H rho mu iota. apply andb_true_iff in H as [F A]. rewrite forallb_forall in A.
  specialize (A (fl_of rho) (in_all32 _)). apply Z.eqb_eq in A. rewrite (feval_any rho mu iota s F). exact A.
Qed.

Lemma split_aff_sound a x s : split_aff a = Some (x, s) -> expr_eqb (mk_aff x s) a = true.
Proof.
  destruct a as [| | | | | | |d src]; try discriminate. intros H.
  assert (Plain : forall d0 s0, (match d0 with ESlice _ _ _ => None | _ => Some (d0, s0) end) = Some (x, s) -> expr_eqb (mk_aff x s) (EAff d0 s0) = true).
  { intros d0 s0 P. destruct d0; try discriminate; inversion P; subst; apply eqb_refl. }
  destruct src as [| | | | | |slots|]; try (apply Plain; exact H).
  cbn [split_aff] in H. match type of H with context [find ?f slots] => destruct (find f slots) as [s1|] eqn:Fd end.
  - apply find_some in Fd as [_ E]. inversion H; subst. exact E.
  - apply Plain. exact H.
Qed.

Theorem set_sound c l : set_ok c l = true ->
  exists a x s, l = [a] /\ expr_eqb (mk_aff x s) a = true /\ size x = 8 /\ size s = 8 /\
    forall rho mu iota, eval rho mu iota s = b2z (cc_holds c (fl_of rho)).
Proof.
  unfold set_ok. destruct l as [|a [|? ?]]; try discriminate. destruct (split_aff a) as [[x s]|] eqn:Sp; try discriminate.
  rewrite !andb_true_iff, !Z.eqb_eq. intros [[S1 S2] V]. exists a, x, s. repeat split; try assumption; [apply split_aff_sound; exact Sp|]. intros rho mu iota. apply (val_spec_sound s _ V).
Qed.

Lemma cond_sound k p q pr : cond_spec k pr = true ->
  forall rho mu iota, eval rho mu iota (ECond k p q) = if pr (fl_of rho) then eval rho mu iota p else eval rho mu iota q.
Proof. intros H rho mu iota. rewrite ev_cond, (cond_spec_sound k pr H). destruct (pr (fl_of rho)); reflexivity. Qed.

Theorem cmov_sound c l : cmov_ok c l = true ->
  exists a x k p q b, l = [a] /\ expr_eqb (mk_aff x (ECond k p q)) a = true /\ (b = p \/ b = q) /\
    forall rho mu iota, eval rho mu iota (ECond k p q) = if cc_holds c (fl_of rho) then eval rho mu iota b else eval rho mu iota x.
Proof.
  unfold cmov_ok. destruct l as [|a [|? ?]]; try discriminate. destruct (split_aff a) as [[x s]|] eqn:Sp; try discriminate.
  destruct s as [| | | |k p q| | |]; try discriminate. pose proof (split_aff_sound _ _ _ Sp) as E.
  destruct (expr_eqb q x) eqn:Q, (expr_eqb p x) eqn:P; cbn [andb]; intros H; try discriminate.
  - exists a, x, k, p, q, p. repeat split; auto. intros rho mu iota.
    rewrite ev_cond, (eval_eqb rho mu iota q x Q), (eval_eqb rho mu iota p x P). destruct (eval rho mu iota k =? 0), (cc_holds c (fl_of rho)); reflexivity.
  - exists a, x, k, p, q, p. repeat split; auto. intros rho mu iota. rewrite (cond_sound k p q _ H), (eval_eqb rho mu iota q x Q). reflexivity.
  - exists a, x, k, p, q, q. repeat split; auto. intros rho mu iota. rewrite (cond_sound k p q _ H), (eval_eqb rho mu iota p x P).
    destruct (cc_holds c (fl_of rho)); reflexivity.
Qed.

Theorem jcc_sound c next l : jcc_ok c next l = true ->
  exists d k p q t, l = [EAff d (ECond k p q)] /\ is_eip d = true /\ (t = p \/ t = q) /\
    forall rho mu iota, eval rho mu iota (ECond k p q) = if cc_holds c (fl_of rho) then eval rho mu iota t else next.
Proof.
  unfold jcc_ok. destruct l as [|a [|? ?]]; try discriminate; destruct a as [| | | | | | |d src]; try discriminate;
  destruct src as [| | | |k p q| | |]; try discriminate.
  rewrite !andb_true_iff, Z.leb_le, Z.ltb_lt. intros [[[Ip N1] N2] C].
  assert (Nx : forall rho mu iota, eval rho mu iota (EInt false 32 next) = next) by (intros; apply wrap_small; lia).
  revert C. destruct (expr_eqb q (EInt false 32 next)) eqn:Q; [|destruct (expr_eqb p (EInt false 32 next)) eqn:P; [|discriminate]]; intros C.
  - exists d, k, p, q, p. repeat split; auto. intros rho mu iota. rewrite (cond_sound k p q _ C), (eval_eqb rho mu iota q _ Q), Nx. reflexivity.
  - exists d, k, p, q, q. repeat split; auto. intros rho mu iota. rewrite (cond_sound k p q _ C), (eval_eqb rho mu iota p _ P), Nx.
    destruct (cc_holds c (fl_of rho)); reflexivity.
Qed.

(** What the sixteen conditions mean after a comparison: with the flags a `cmp x, y` of width n leaves (C04_sub_sbb_cmp), the
    conditions are the unsigned / signed order relations of the SDM's mnemonics (below, above, less, greater, equal) *)
Definition cmp_flags (n x y : Z) (pf : bool) : fl5 :=
  let z := (x - y) mod 2 ^ n in (cf_sub n x y 0, z =? 0, Z.testbit z (n - 1), of_sub n x y 0, pf).
Theorem cc_after_cmp n x y pf : 0 < n -> 0 <= x < 2 ^ n -> 0 <= y < 2 ^ n ->
  let v := cmp_flags n x y pf in
  cc_holds CB v = (x <? y) /\ cc_holds CAE v = (y <=? x) /\ cc_holds CE v = (x =? y) /\ cc_holds CNE v = negb (x =? y) /\
  cc_holds CBE v = (x <=? y) /\ cc_holds CA v = (y <? x) /\
  cc_holds CL v = (sgnv n x <? sgnv n y) /\ cc_holds CGE v = (sgnv n y <=? sgnv n x) /\
  cc_holds CLE v = (sgnv n x <=? sgnv n y) /\ cc_holds CG v = (sgnv n y <? sgnv n x).
Proof.
  intros Hn Hx Hy. destruct (pow_split n Hn) as [E P]. unfold cmp_flags. cbv zeta. set (z := (x - y) mod 2 ^ n).
  assert (Zr : 0 <= z < 2 ^ n) by (apply Z.mod_pos_bound; lia).
  assert (Zv : z = if x <? y then x - y + 2 ^ n else x - y).
  { unfold z. destruct (Z.ltb_spec x y); [apply (wrap_unique n _ _ (-1)); lia | apply Z.mod_small; lia]. }
  (* zf tells whether the operands are equal, under either reading; sf <> of tells the signed order *)
  assert (Zf : (z =? 0) = (x =? y)).
  { destruct (Z.eqb_spec x y) as [->|N]; [unfold z; rewrite Z.sub_diag; reflexivity|]. apply Z.eqb_neq. rewrite Zv. destruct (x <? y); lia. }
  assert (Sg : (sgnv n x =? sgnv n y) = (x =? y)).
  { unfold sgnv. destruct (Z.eqb_spec x y) as [->|N]; [apply Z.eqb_refl|]. apply Z.eqb_neq. rewrite E. destruct (_ <=? x), (_ <=? y); lia. }
  assert (Sl : xorb (Z.testbit z (n - 1)) (of_sub n x y 0) = (sgnv n x <? sgnv n y)).
  { rewrite (msb_ge n z Hn Zr), Zv. unfold of_sub, sgnv. cbv zeta. rewrite E in *. clear z Zr Zv Zf Sg. set (Q := 2 ^ (n - 1)) in *. clearbody Q.
    destruct (Z.ltb_spec x y), (Z.leb_spec Q x), (Z.leb_spec Q y); cmp_cases. }
  unfold cc_holds, cf_sub. rewrite Zf, Sl, Z.add_0_r. set (sx := sgnv n x) in *. set (sy := sgnv n y) in *.
  repeat split; try reflexivity; cmp_cases.
Qed.
