(** SemStrProofs.v — the pointer update of the string moves: by the element size, down when the direction flag is set, modulo the
    width of the pointer. *)
From Coq Require Import ZArith List Bool String Lia.
From Mx Require Import Expr ExprProofs Sem SemProofs SemStr.
Import ListNotations.
Open Scope Z_scope.

Section Meaning.
  Variable rho : string -> Z.
  Variable mu : Z -> Z.
  Variable iota : string -> list Z -> Z.
  Notation ev := (eval rho mu iota).
  Theorem ptr_next_value p off : operand_ok p = true -> 0 <= off < 2 ^ size p ->
    ev (ptr_next p off) = if Z.odd (rho "df") then (ev p - off) mod 2 ^ size p else (ev p + off) mod 2 ^ size p.
  Proof.
    intros Op Ho. destruct (operand_range rho mu iota p Op) as [Pp _]. unfold ptr_next, df.
    rewrite ev_cond, ev_flag, ev_add, ev_sub, ev_int_from by (lia || exact Ho). destruct (Z.odd (rho "df")); reflexivity.
  Qed.
End Meaning.
