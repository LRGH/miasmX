(** PreState.v — all assignments of one instruction, memory destinations included, are evaluated in the state the instruction started in:
    get_instr_mod is "evaluate every (destination address, source) in the pre-state, one after the other, then bind them in order". *)
From Coq Require Import ZArith List Bool.
From Mx Require Import Expr Simp EvalAbs FuelProofs MachineProofs.
Import ListNotations.
Open Scope list_scope.

Definition aff_ok (a : expr) : bool := match a with EAff (EId _ _ _ _) _ | EAff (EMem _ _ _) _ => true | _ => false end.
(** one assignment evaluated in state s: the key it will be bound under and its value *)
Definition eval_aff (fuel : nat) (s : pool) (a : expr) : res (expr * expr) + xerr :=
  match a with
  | EAff dst src =>
      dox v <- eval_expr fuel s src;
      match dst with
      | EMem addr w _ => dox a' <- (dox y <- eval_expr fuel s addr; lift (simpF y)); okx (EMem a' w None, v)
      | EId _ _ _ _ => okx (dst, v)
      | _ => inl (Err EValueError)
      end
  | _ => inl (Err ETypeError)
  end.
Lemma step_mod_eval_aff fuel s acc a :
  step_mod fuel s acc a = (dox out <- acc; dox kv <- eval_aff fuel s a; okx (adict_set out (fst kv) (snd kv))).
Proof.
  destruct acc as [[out| |]|]; try reflexivity. destruct a as [| | | | | | |dst src]; try reflexivity. cbn [step_mod eval_aff bindx okx].
  destruct (eval_expr fuel s src) as [[v| |]|]; try reflexivity. destruct dst as [| |addr w sg| | | | |]; try reflexivity. cbn [bindx okx].
  destruct (eval_expr fuel s addr) as [[y| |]|]; try reflexivity. cbn [bindx lift]. destruct (simpF y); reflexivity.
Qed.
(** whatever the assignments are: the model's errors on other trees are raised by eval_aff as well *)
Theorem assignments_evaluated_then_bound fuel s affs acc0 :
  fold_left (step_mod fuel s) affs (okx acc0) =
  (dox kvs <- mapX (eval_aff fuel s) affs; okx (fold_left (fun out kv => adict_set out (fst kv) (snd kv)) kvs acc0)).
Proof. apply fold_dox. apply step_mod_eval_aff. Qed.
Corollary get_instr_mod_reads_pre_state fuel s affs :
  get_instr_mod fuel s affs = (dox kvs <- mapX (eval_aff fuel s) affs; okx (fold_left (fun out kv => adict_set out (fst kv) (snd kv)) kvs [])).
Proof. apply assignments_evaluated_then_bound. Qed.

(** for register destinations: the sources are evaluated one after the other in the SAME state s — the state the instruction
    started in — and only then bound, in order; no source sees a value assigned by the same instruction *)
Theorem assignments_read_pre_state fuel s affs acc0 : forallb reg_aff affs = true ->
  fold_left (step_mod fuel s) affs (okx acc0) =
  (dox vs <- mapX (fun a => eval_expr fuel s (aff_src a)) affs;
   okx (fold_left (fun out dv => adict_set out (fst dv) (snd dv)) (combine (map aff_dst affs) vs) acc0)).
Proof.
  intros R. rewrite assignments_evaluated_then_bound.
  rewrite (mapX_ext _ (fun a => dox v <- eval_expr fuel s (aff_src a); okx (aff_dst a, v))), mapX_pair.
  - destruct (mapX (fun a => eval_expr fuel s (aff_src a)) affs) as [[vs| |]|]; reflexivity.
  - apply Forall_forall. intros a Ha. apply (proj1 (forallb_forall _ _) R) in Ha.
    destruct a as [| | | | | | |dst src]; try discriminate. destruct dst; try discriminate. reflexivity.
Qed.
