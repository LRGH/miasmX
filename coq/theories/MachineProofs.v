(** MachineProofs.v — facts about the symbolic machine state model (C07, C12): memory cells of the pool, and independence of
    the results from the fuel parameter that stands for Python's recursion depth. *)
From Coq Require Import ZArith List Bool Lia.
From Mx Require Import Expr ExprProofs Simp EvalAbs FuelProofs.
Import ListNotations.
Open Scope list_scope.
Open Scope Z_scope.

Lemma adict_get_set_same {V} (d : list (expr * V)) k v : adict_get (adict_set d k v) k = Some v.
Proof.
  induction d as [|[k' v'] d IH]; simpl.
  - rewrite eqb_refl. reflexivity.
  - destruct (expr_eqb k' k) eqn:E; simpl; rewrite E; [reflexivity | exact IH].
Qed.
Lemma adict_get_set_other {V} (d : list (expr * V)) k k2 v : expr_eqb k k2 = false -> adict_get (adict_set d k v) k2 = adict_get d k2.
Proof.
  intros N. induction d as [|[k' v'] d IH]; simpl.
  - rewrite N. reflexivity.
  - destruct (expr_eqb k' k) eqn:E; simpl.
    + destruct (expr_eqb k' k2) eqn:E2; [|reflexivity].
      exfalso. rewrite eqb_sym in E. rewrite (eqb_trans k k' k2 E E2) in N. discriminate.
    + destruct (expr_eqb k' k2); [reflexivity | exact IH].
Qed.

(** a cell written at an address and read back at the same address and width returns the written value; cells at other
    (syntactically different) addresses and all register bindings are untouched *)
Theorem write_then_read_same_cell s a w sg v : pool_get_mem (pool_set s (EMem a w sg) v) a w = Some v.
Proof. unfold pool_get_mem, pool_set. cbn [pool_mem]. rewrite adict_get_set_same. cbn [size]. rewrite Z.eqb_refl. reflexivity. Qed.
Theorem write_keeps_other_cells s a w sg v a2 w2 : expr_eqb a a2 = false ->
  pool_get_mem (pool_set s (EMem a w sg) v) a2 w2 = pool_get_mem s a2 w2.
Proof. intros N. unfold pool_get_mem, pool_set. cbn [pool_mem]. rewrite adict_get_set_other by exact N. reflexivity. Qed.
Theorem write_keeps_registers s a w sg v : pool_id (pool_set s (EMem a w sg) v) = pool_id s.
Proof. reflexivity. Qed.
Theorem register_write_keeps_memory s n w r t v : pool_mem (pool_set s (EId n w r t) v) = pool_mem s.
Proof. reflexivity. Qed.
Theorem register_write_then_read s n w r t v : adict_get (pool_id (pool_set s (EId n w r t) v)) (EId n w r t) = Some v.
Proof. unfold pool_set. cbn [pool_id]. apply adict_get_set_same. Qed.

(** The simplifier's result does not depend on the fuel (the model's stand-in for recursion depth): more fuel, same answer.
    [ler] is FuelProofs.le once more, for the simplifier's monad res in place of the evaluator's res + xerr. *)
Definition ler {A} (x x' : res A) : Prop := forall r, x = Ok r -> x' = Ok r.
Lemma ler_refl {A} (x : res A) : ler x x.
Proof. intros r H. exact H. Qed.
Lemma ler_bind {A B} (x x' : res A) (f f' : A -> res B) : ler x x' -> (forall a, ler (f a) (f' a)) -> ler (bind x f) (bind x' f').
Proof. intros Hx Hf r H. destruct x as [a| |]; try discriminate. rewrite (Hx a eq_refl). exact (Hf a r H). Qed.
Lemma ler_mapM {A B} (f g : A -> res B) l : Forall (fun x => ler (f x) (g x)) l -> ler (mapM f l) (mapM g l).
Proof.
  induction 1 as [|a l Ha _ IH]; cbn [mapM]; [apply ler_refl|].
  apply ler_bind; [exact Ha | intros b]. apply ler_bind; [exact IH | intros r; apply ler_refl].
Qed.

Lemma visitM_mono (cb cb' : expr -> res expr) : (forall x, ler (cb x) (cb' x)) -> forall e, ler (visitM cb e) (visitM cb' e).
Proof.
  intros cb_le. induction e using expr_ind'; cbn [visitM]; repeat (apply ler_bind; [|intros ?]); try apply cb_le; try assumption.
  - destruct s as [u|]; [|apply ler_refl]. apply ler_bind; [assumption | intros u'; apply ler_refl].
  - apply ler_mapM. assumption.
  - apply ler_mapM. eapply Forall_impl; [|eassumption]. cbv beta.
    intros sl Hs. apply ler_bind; [exact Hs | intros x; apply ler_refl].
Qed.

Lemma loop_mono (rec rec' : expr -> res expr) : (forall x, ler (rec x) (rec' x)) ->
  forall n m e, (n <= m)%nat -> ler (simp_loop rec n e) (simp_loop rec' m e).
Proof.
  intros R. induction n as [|n IH]; intros m e L; [intros r H; discriminate|]. destruct m as [|m]; [lia|]. cbn [simp_loop].
  apply ler_bind; [apply ler_refl | intros e1]. destruct (expr_eqb e1 e); [apply ler_refl|].
  apply ler_bind; [apply R | intros e2; apply IH; lia].
Qed.

Theorem simp_fuel_mono : forall f e, ler (simp f e) (simp (S f) e).
Proof.
  (* f' stands for S f, so that cbn unfolds each side once *)
  assert (Step : forall f f', (f <= f')%nat -> (forall x, ler (simp f x) (simp f' x)) -> forall e, ler (simp (S f) e) (simp (S f') e)).
  { intros f f' L H e. cbn [simp]. apply visitM_mono. intros x. apply loop_mono; [exact H | lia]. }
  induction f as [|f IH]; intros e; [intros r H; discriminate | apply Step; [lia | exact IH]].
Qed.
Corollary simp_fuel_irrelevant : forall f f' e r, (f <= f')%nat -> simp f e = Ok r -> simp f' e = Ok r.
Proof. intros f f' e r. exact (fuel_le (fun f => simp f e) (Ok r) (fun f => simp_fuel_mono f e r) f f'). Qed.
Corollary simp_deterministic_in_fuel : forall f f' e r r', simp f e = Ok r -> simp f' e = Ok r' -> r = r'.
Proof.
  intros f f' e. apply (fuel_agree (fun f => simp f e) Ok); [intros a b H; injection H as <-; reflexivity | intros r f0; apply simp_fuel_mono].
Qed.

(** what PreState.v states its theorems with: the two sides of an assignment, and the step of the fold that get_instr_mod is *)
Definition aff_dst (a : expr) : expr := match a with EAff d _ => d | _ => a end.
Definition aff_src (a : expr) : expr := match a with EAff _ s => s | _ => a end.
Definition reg_aff (a : expr) : bool := match a with EAff (EId _ _ _ _) _ => true | _ => false end.
Definition step_mod (fuel : nat) (s : pool) (acc : res (list (expr * expr)) + xerr) (aff : expr) : res (list (expr * expr)) + xerr :=
  dox out <- acc;
  match aff with
  | EAff dst src =>
      dox v <- eval_expr fuel s src;
      match dst with
      | EMem addr w _ => dox a <- (dox y <- eval_expr fuel s addr; lift (simpF y)); okx (adict_set out (EMem a w None) v)
      | EId _ _ _ _ => okx (adict_set out dst v)
      | _ => inl (Err EValueError)
      end
  | _ => inl (Err ETypeError)
  end.
Lemma get_instr_mod_fold fuel s affs : get_instr_mod fuel s affs = fold_left (step_mod fuel s) affs (okx []).
Proof. reflexivity. Qed.
