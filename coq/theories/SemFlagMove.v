(** SemFlagMove.v — lahf / sahf of the x86 lifter: the mirror and its bit-level meaning (ah = SF:ZF:0:AF:0:PF:1:CF and back). *)
From Coq Require Import ZArith List Bool String Lia.
From Mx Require Import Expr ExprProofs Bits Sem SemStr.
Import ListNotations.
Open Scope string_scope.
Open Scope list_scope.
Open Scope Z_scope.

Definition ah : expr := ESlice eax 8 16.
Definition lahf_src : expr :=
  ECompose [(flag "cf", 0, 1); (EInt false 32 1, 1, 2); (flag "pf", 2, 3); (EInt false 32 0, 3, 4); (flag "af", 4, 5); (EInt false 32 0, 5, 6); (flag "zf", 6, 7); (flag "nf", 7, 8)].
Definition mirror_lahf : list expr := [mk_aff ah lahf_src].
Definition mirror_sahf : list expr :=
  [EAff (flag "cf") (ESlice ah 0 1); EAff (flag "pf") (ESlice ah 2 3); EAff (flag "af") (ESlice ah 4 5); EAff (flag "zf") (ESlice ah 6 7); EAff (flag "nf") (ESlice ah 7 8)].
Definition flagmove_mirror (mn : string) : option (list expr) :=
  if (mn =? "lahf")%string then Some mirror_lahf else if (mn =? "sahf")%string then Some mirror_sahf else None.

Section Meaning.
  Variable rho : string -> Z.
  Variable mu : Z -> Z.
  Variable iota : string -> list Z -> Z.
  Notation ev := (eval rho mu iota).
  Definition fbit (n : string) : Z := Z.b2z (Z.odd (rho n)).
  (** lahf: the byte written to ah *)
  Theorem lahf_value : ev lahf_src = fbit "cf" + 2 + 4 * fbit "pf" + 16 * fbit "af" + 64 * fbit "zf" + 128 * fbit "nf".
  Proof.
    unfold lahf_src, fbit. rewrite eval_compose. cbn [map fold_left]. unfold slot_val, slot_e, slot_lo, slot_hi, flag. cbn [fst snd eval].
    rewrite !wrap1_odd. destruct (Z.odd (rho "cf")), (Z.odd (rho "pf")), (Z.odd (rho "af")), (Z.odd (rho "zf")), (Z.odd (rho "nf")); vm_compute; reflexivity.
  Qed.
  (** sahf: each flag receives its bit of ah, i.e. bit 8 + k of eax *)
  Theorem sahf_bit k : 0 <= k < 8 -> ev (ESlice ah k (k + 1)) = Z.b2z (Z.testbit (rho "eax") (8 + k)).
  Proof.
    intros Hk. unfold ah, eax. cbn [eval]. replace (k + 1 - k) with 1 by lia. unfold wrap. change (2 ^ 1) with 2. rewrite <- Z.bit0_mod.
    rewrite Z.shiftr_spec by lia. rewrite Z.mod_pow2_bits_low by lia. rewrite Z.shiftr_spec by lia. rewrite Z.mod_pow2_bits_low by lia. f_equal. f_equal. lia.
  Qed.
End Meaning.
