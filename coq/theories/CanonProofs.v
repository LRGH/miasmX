(** CanonProofs.v — canonize() preserves width and value on well-formed trees (C15): sorting the operands of a commutative-
    associative operator changes neither, because all operands have one width and the operator is a fold of a commutative,
    associative function modulo 2^w; sorting the slots of a concatenation changes neither, because the value is the OR of
    the slots' fields (compose_perm_good). *)
From Coq Require Import ZArith List Bool String Permutation.
From Mx Require Import Expr ExprProofs Simp ComposeProofs SimpProofs.
Import ListNotations.
Open Scope list_scope.
Open Scope Z_scope.

Lemma mapM_ok_map {A B} (f : A -> B) l : mapM (fun x => Ok (f x)) l = Ok (map f l).
Proof. induction l as [|a l IH]; simpl; [reflexivity | rewrite IH; reflexivity]. Qed.
Lemma mapM_ext {A B} (f g : A -> res B) l : Forall (fun x => f x = g x) l -> mapM f l = mapM g l.
Proof. induction 1 as [|a l Ha _ IH]; simpl; [reflexivity | rewrite Ha, IH; reflexivity]. Qed.

Lemma visit_as_visitM cb : forall e, visitM (fun x => Ok (cb x)) e = Ok (visit cb e).
Proof.
  induction e using expr_ind'; simpl; try reflexivity.
  - destruct s as [u|]; simpl in *; [rewrite H|]; cbn [bind]; rewrite IHe; reflexivity.
  - rewrite (mapM_ext (visitM (fun x => Ok (cb x))) (fun x => Ok (visit cb x)) args H), mapM_ok_map. reflexivity.
  - rewrite IHe1, IHe2, IHe3. reflexivity.
  - rewrite IHe. reflexivity.
  - erewrite (mapM_ext _ (fun s => Ok (visit cb (slot_e s), slot_lo s, slot_hi s)) args), mapM_ok_map; [reflexivity|].
    eapply Forall_impl; [|exact H]. intros sl Hs. cbn beta in *. rewrite Hs. reflexivity.
  - rewrite IHe1, IHe2. reflexivity.
Qed.

Section Canon.
  Variable ac : bool.
  Variable IdQ : string -> Z -> bool -> bool -> bool.
  Variable rho : string -> Z.
  Variable mu : Z -> Z.
  Variable iota : string -> list Z -> Z.

  Lemma compose_perm_good l l' : wf ac IdQ (ECompose l) = true -> Permutation l l' -> good ac IdQ rho mu iota (ECompose l) (ECompose l').
  Proof.
    intros W P. destruct (proj1 (wf_compose_iff ac IdQ l) W) as (_ & _ & Hs & _). apply compose_good; [exact W | | |].
    - intros s Is. apply Hs, (Permutation_in _ (Permutation_sym P) Is).
    - intros i. symmetry. apply occ_perm, P.
    - symmetry. apply V_perm, P.
  Qed.

  Lemma canon_cb_good x : wf ac IdQ x = true -> good ac IdQ rho mu iota x (canon_cb x).
  Proof.
    intros W. destruct x as [| | |op args| | |slots|]; try (simpl in W; discriminate); try (apply good_refl; exact W).
    (* left: operator nodes, then concatenations; everything else is returned as it is *)
    2:{ unfold canon_cb. apply compose_perm_good; [exact W|]. apply Permutation_sym. apply (sort_by_perm key_slot slots). }
    unfold canon_cb. destruct (is_assoc op) eqn:A; [|apply good_refl; exact W].
    assert (K : exists k, aop_of op = Some k) by (unfold is_assoc in A; unfold aop_of; destruct (opk_of op); try discriminate; eauto).
    destruct K as [k K]. apply (perm_node_good ac IdQ rho mu iota op k); [exact K | apply Permutation_sym, (sort_by_perm key_expr) | exact W].
  Qed.

  Theorem canonize_good e : wf ac IdQ e = true -> good ac IdQ rho mu iota e (canonize e).
  Proof.
    intros W. unfold canonize.
    apply (visit_good ac IdQ rho mu iota (fun x => Ok (canon_cb x))); [| |exact W | apply visit_as_visitM].
    - intros x x' Wx Hx. inversion Hx; subst. apply canon_cb_good. exact Wx.
    - intros sg w v x' Hx. inversion Hx; subst. reflexivity.
  Qed.
End Canon.

Theorem canonize_preserves : forall (ac : bool) (Q : string -> Z -> bool -> bool -> bool) e, wf ac Q e = true ->
  wf ac Q (canonize e) = true /\ size (canonize e) = size e /\ forall rho mu iota, eval rho mu iota (canonize e) = eval rho mu iota e.
Proof.
  intros ac Q e W. destruct (canonize_good ac Q (fun _ => 0) (fun _ => 0) (fun _ _ => 0) e W) as (A & B & _).
  split; [exact A|]. split; [exact B|]. intros rho mu iota. apply (canonize_good ac Q rho mu iota e W).
Qed.
