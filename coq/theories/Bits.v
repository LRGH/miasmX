(** Bits.v — arithmetic of [wrap] and of single bits shared by the proofs about the simplifier, the evaluator and the lifter mirrors. *)
From Coq Require Import ZArith Bool Lia List Permutation.
Import ListNotations.
From Mx Require Import Expr.
Open Scope Z_scope.

(** Split on every boolean comparison of the goal, keeping the order facts as hypotheses, and close each case by computing the
    booleans or by linear arithmetic.  [lia] alone decides such goals through [ZifyBool], slowly when several comparisons sit
    under [xorb] / [andb]; after the split every call is a plain linear problem. *)
Ltac cmp_cases :=
  repeat match goal with
         | |- context [?a <=? ?b] => destruct (Z.leb_spec a b)
         | |- context [?a <? ?b] => destruct (Z.ltb_spec a b)
         end;
  cbn [xorb andb orb negb]; first [reflexivity | lia].

Lemma pow2_pos n : 0 <= n -> 0 < 2 ^ n.
Proof. intros H. apply Z.pow_pos_nonneg; lia. Qed.
Lemma one_lt_pow2 n : 0 < n -> 1 < 2 ^ n.
Proof. intros H. change 1 with (2 ^ 0). apply Z.pow_lt_mono_r; lia. Qed.
Lemma pow_split n : 0 < n -> 2 ^ n = 2 * 2 ^ (n - 1) /\ 0 < 2 ^ (n - 1).
Proof. intros H. split; [replace n with (1 + (n - 1)) at 1 by lia; rewrite Z.pow_add_r by lia; reflexivity | apply pow2_pos; lia]. Qed.
Lemma pow2_double n : 0 <= n -> 2 ^ (2 * n) = 2 ^ n * 2 ^ n.
Proof. intros H. rewrite <- Z.pow_add_r by lia. f_equal. lia. Qed.

Lemma wrap_range w v : 0 <= w -> 0 <= wrap w v < 2 ^ w.
Proof. intros H. apply Z.mod_pos_bound, pow2_pos, H. Qed.
Lemma wrap_small_le n k v : 0 <= v < 2 ^ k -> k <= n -> wrap n v = v.
Proof. intros Hv Hk. apply Z.mod_small. split; [lia|]. apply Z.lt_le_trans with (2 ^ k); [lia | apply Z.pow_le_mono_r; lia]. Qed.
Lemma wrap_small n v : 0 <= v < 2 ^ n -> wrap n v = v.
Proof. apply Z.mod_small. Qed.
Lemma wrap_0 n : wrap n 0 = 0.
Proof. apply Zmod_0_l. Qed.
Lemma wrap_b2z n b : 0 < n -> wrap n (Z.b2z b) = Z.b2z b.
Proof. intros H. pose proof (one_lt_pow2 n H). apply wrap_small. destruct b; cbn; lia. Qed.
Lemma wrap_idem n v : wrap n (wrap n v) = wrap n v.
Proof. unfold wrap. destruct (Z.eq_dec (2 ^ n) 0) as [E|E]; [rewrite E, !Zmod_0_r; reflexivity | apply Z.mod_mod; exact E]. Qed.
Lemma wrap_wrap_ge m n v : 0 <= n <= m -> wrap n (wrap m v) = wrap n v.
Proof.
  intros H. unfold wrap. replace (2 ^ m) with (2 ^ n * 2 ^ (m - n)) by (rewrite <- Z.pow_add_r by lia; f_equal; lia).
  pose proof (pow2_pos n) as P1. pose proof (pow2_pos (m - n)) as P2.
  rewrite Z.rem_mul_r by lia. rewrite (Z.mul_comm (2 ^ n)), Z.mod_add by lia. apply Z.mod_mod. lia.
Qed.
Lemma mod_mod_pow a n m : 0 <= n <= m -> (a mod 2 ^ m) mod 2 ^ n = a mod 2 ^ n.
Proof. exact (wrap_wrap_ge m n a). Qed.
Lemma wrap_unique n v r q : 0 <= r < 2 ^ n -> v = q * 2 ^ n + r -> wrap n v = r.
Proof. intros Hr E. symmetry. apply (Z.mod_unique_pos v (2 ^ n) q r Hr). rewrite E. ring. Qed.
Lemma wrap1_odd v : wrap 1 v = Z.b2z (Z.odd v).
Proof. unfold wrap. change (2 ^ 1) with 2. rewrite Zmod_odd. destruct (Z.odd v); reflexivity. Qed.

Lemma wrap_bits w v i : 0 <= w -> Z.testbit (wrap w v) i = (i <? w) && Z.testbit v i.
Proof.
  intros Hw. unfold wrap. destruct (Z.ltb_spec i w) as [L|L]; [apply Z.mod_pow2_bits_low; lia | apply Z.mod_pow2_bits_high; lia].
Qed.
Lemma testbit_wrap n v i : 0 <= i < n -> Z.testbit (wrap n v) i = Z.testbit v i.
Proof. intros H. rewrite wrap_bits by lia. cmp_cases. Qed.
(** a number lies between 0 and 2^n exactly when it has no bit from n on (a negative one has all bits from some point on) *)
Lemma bits_above x n i : 0 <= x < 2 ^ n -> n <= i -> Z.testbit x i = false.
Proof.
  intros Hx Hi. destruct (Z_lt_le_dec n 0) as [N|N]; [rewrite Z.pow_neg_r in Hx by lia; lia|].
  rewrite <- (wrap_small n x Hx), wrap_bits by lia. cmp_cases.
Qed.
Lemma below_pow2 n v : 0 <= n -> (forall i, n <= i -> Z.testbit v i = false) -> 0 <= v < 2 ^ n.
Proof.
  intros Hn H. replace v with (wrap n v); [apply wrap_range, Hn|].
  apply Z.bits_inj'. intros i Hi. rewrite wrap_bits by lia. destruct (Z.ltb_spec i n) as [L|L]; [reflexivity | symmetry; apply H, L].
Qed.
Lemma lor_lt_pow2 a b n : 0 <= n -> 0 <= a < 2 ^ n -> 0 <= b < 2 ^ n -> 0 <= Z.lor a b < 2 ^ n.
Proof.
  intros Hn Ha Hb. apply below_pow2; [exact Hn|].
  intros i Hi. rewrite Z.lor_spec, (bits_above a n), (bits_above b n) by assumption. reflexivity.
Qed.
Lemma lxor_lt_pow2 a b n : 0 <= n -> 0 <= a < 2 ^ n -> 0 <= b < 2 ^ n -> 0 <= Z.lxor a b < 2 ^ n.
Proof.
  intros Hn Ha Hb. apply below_pow2; [exact Hn|].
  intros i Hi. rewrite Z.lxor_spec, (bits_above a n), (bits_above b n) by assumption. reflexivity.
Qed.
Lemma land_lt_pow2 a b n : 0 <= n -> 0 <= a < 2 ^ n -> 0 <= Z.land a b < 2 ^ n.
Proof.
  intros Hn Ha. apply below_pow2; [exact Hn|].
  intros i Hi. rewrite Z.land_spec, (bits_above a n) by assumption. reflexivity.
Qed.
Lemma wrap_eq_bits w a b : 0 <= w -> (forall i, 0 <= i < w -> Z.testbit a i = Z.testbit b i) -> wrap w a = wrap w b.
Proof.
  intros Hw H. apply Z.bits_inj'. intros i Hi. rewrite !wrap_bits by lia. destruct (Z.ltb_spec i w) as [L|L]; [|reflexivity].
  cbn [andb]. apply H. lia.
Qed.
Lemma eq_by_bits w a b : 0 <= w -> 0 <= a < 2 ^ w -> 0 <= b < 2 ^ w -> (forall i, 0 <= i < w -> Z.testbit a i = Z.testbit b i) -> a = b.
Proof. intros Hw Ha Hb H. rewrite <- (wrap_small w a Ha), <- (wrap_small w b Hb). apply wrap_eq_bits; assumption. Qed.
Lemma msb_ge n x : 0 < n -> 0 <= x < 2 ^ n -> Z.testbit x (n - 1) = (2 ^ (n - 1) <=? x).
Proof.
  intros Hn Hx. destruct (pow_split n Hn) as [E P]. destruct (Z.leb_spec (2 ^ (n - 1)) x) as [L|L].
  - apply Z.testbit_true; [lia|]. rewrite <- (Z.div_unique x (2 ^ (n - 1)) 1 (x - 2 ^ (n - 1))) by lia. reflexivity.
  - apply (bits_above x (n - 1)); lia.
Qed.
Lemma sign_bits n s i : 0 < n -> - 2 ^ (n - 1) <= s < 2 ^ (n - 1) -> n - 1 <= i -> Z.testbit s i = (s <? 0).
Proof.
  intros Hn Hs Hi. destruct (Z.ltb_spec s 0) as [N|N]; [|apply (bits_above s (n - 1)); lia].
  assert (P : 2 ^ (n - 1) <= 2 ^ i) by (apply Z.pow_le_mono_r; lia).
  apply Z.testbit_true; [lia|]. rewrite <- (Z.div_unique s (2 ^ i) (-1) (s + 2 ^ i)) by lia. reflexivity.
Qed.

Lemma land_mask w x : 0 <= w -> Z.land x (2 ^ w - 1) = wrap w x.
Proof. intros H. replace (2 ^ w - 1) with (Z.ones w) by (rewrite Z.ones_equiv; lia). apply Z.land_ones. exact H. Qed.
Lemma land_mask_small w a : 0 <= w -> 0 <= a < 2 ^ w -> Z.land a (2 ^ w - 1) = a.
Proof. intros Hw H. rewrite land_mask by exact Hw. apply wrap_small, H. Qed.
Lemma land1_bit0 v : Z.land v 1 = Z.b2z (Z.testbit v 0).
Proof. change 1 with (Z.ones 1). rewrite Z.land_ones by lia. symmetry. apply Z.bit0_mod. Qed.

Lemma testbit_slot w x off i : 0 <= w -> 0 <= off ->
  Z.testbit (Z.shiftl (wrap w x) off) i = (off <=? i) && (i <? off + w) && Z.testbit x (i - off).
Proof.
  intros Hw Ho. destruct (Z.leb_spec off i) as [L|L]; [|apply Z.shiftl_spec_low; lia].
  rewrite Z.shiftl_spec, wrap_bits by lia. cbn [andb]. f_equal. cmp_cases.
Qed.
Lemma testbit_slot_in w x off i : 0 <= off <= i -> i < off + w -> Z.testbit (Z.shiftl (wrap w x) off) i = Z.testbit x (i - off).
Proof. intros H L. rewrite testbit_slot by lia. cmp_cases. Qed.
Lemma testbit_slot_out w x off i : 0 <= w -> 0 <= off -> i < off \/ off + w <= i -> Z.testbit (Z.shiftl (wrap w x) off) i = false.
Proof. intros Hw Ho H. rewrite testbit_slot by lia. cmp_cases. Qed.

(** The two's complement reading of the low n bits, [Expr.sgn].  The models write it again as [Asm.sgnw] (the assembler's;
    [Operand.norm32] is [sgnw 32] written out) and the lifter proofs as [SemProofs.sgnv] (of a value already below 2^n): the facts are
    proved for [sgn], and AsmProofs.sgnw_sgn and SemProofs.sgn_sgnv carry them over. *)
Lemma sgn_range n v : 0 < n -> - 2 ^ (n - 1) <= sgn n v < 2 ^ (n - 1).
Proof.
  intros Hn. destruct (pow_split n Hn) as [E P]. unfold sgn. cbv zeta. pose proof (wrap_range n v ltac:(lia)) as R.
  destruct (Z.geb_spec (2 * wrap n v) (2 ^ n)); lia.
Qed.
Lemma sgn_congr n v : 0 < n -> (sgn n v) mod 2 ^ n = v mod 2 ^ n.
Proof.
  intros Hn. unfold sgn. cbv zeta. unfold wrap. pose proof (pow2_pos n ltac:(lia)) as P.
  destruct (2 * (v mod 2 ^ n) >=? 2 ^ n); [|apply Z.mod_mod; lia].
  replace (v mod 2 ^ n - 2 ^ n) with (v mod 2 ^ n + (-1) * 2 ^ n) by lia. rewrite Z.mod_add by lia. apply Z.mod_mod. lia.
Qed.
Lemma sgn_id n v : 0 < n -> - 2 ^ (n - 1) <= v < 2 ^ (n - 1) -> sgn n v = v.
Proof.
  intros Hn Hv. destruct (pow_split n Hn) as [E P]. unfold sgn. cbv zeta.
  destruct (Z_lt_le_dec v 0) as [N|N]; [rewrite (wrap_unique n v (v + 2 ^ n) (-1)) by lia | rewrite (wrap_small n v) by lia];
    destruct (Z.geb_spec (2 * (v + 2 ^ n)) (2 ^ n)), (Z.geb_spec (2 * v) (2 ^ n)); lia.
Qed.
Lemma sgn_of_wrap n v : sgn n (wrap n v) = sgn n v.
Proof. unfold sgn. cbv zeta. rewrite wrap_idem. reflexivity. Qed.
Lemma sgn_zero n v : 0 < n -> sgn n v = 0 -> wrap n v = 0.
Proof.
  intros Hn. unfold sgn. cbv zeta. pose proof (wrap_range n v ltac:(lia)) as R. destruct (Z.geb_spec (2 * wrap n v) (2 ^ n)); lia.
Qed.

Lemma div_pow2_range x n c : 0 <= x < 2 ^ n -> 0 <= c -> 0 <= x / 2 ^ c < 2 ^ n.
Proof.
  intros Hx Hc. pose proof (pow2_pos c Hc) as P. split; [apply Z.div_pos; lia|].
  apply Z.le_lt_trans with x; [|lia]. apply Z.div_le_upper_bound; [exact P|]. nia.
Qed.
Lemma shiftr_range x n c : 0 <= x < 2 ^ n -> 0 <= c -> 0 <= Z.shiftr x c < 2 ^ n.
Proof. intros Hx Hc. rewrite Z.shiftr_div_pow2 by exact Hc. apply div_pow2_range; assumption. Qed.
(** shift counts saturated at the width n (as [eval_op] does) or above it shift like the counts themselves *)
Lemma shiftl_sat n m x c : 0 <= n <= m -> wrap n (Z.shiftl x (Z.min c m)) = wrap n (Z.shiftl x c).
Proof.
  intros Hn. destruct (Z.min_spec c m) as [[_ ->]|[L ->]]; [reflexivity|].
  apply wrap_eq_bits; [lia|]. intros i Hi. rewrite !Z.shiftl_spec_low by lia. reflexivity.
Qed.
Lemma shiftr_sat n m x c : 0 <= x < 2 ^ n -> n <= m -> Z.shiftr x (Z.min c m) = Z.shiftr x c.
Proof.
  intros Hx Hn. destruct (Z.min_spec c m) as [[_ ->]|[L ->]]; [reflexivity|].
  apply Z.bits_inj'. intros i Hi. rewrite !Z.shiftr_spec, !(bits_above x n) by lia. reflexivity.
Qed.
Lemma sar_sat n m s c : 0 < n <= m -> - 2 ^ (n - 1) <= s < 2 ^ (n - 1) -> wrap n (Z.shiftr s (Z.min c m)) = wrap n (Z.shiftr s c).
Proof.
  intros Hn Hs. destruct (Z.min_spec c m) as [[_ ->]|[L ->]]; [reflexivity|].
  apply wrap_eq_bits; [lia|]. intros i Hi. rewrite !Z.shiftr_spec, !(sign_bits n s) by lia. reflexivity.
Qed.

Definition bigop {A B} (f : B -> B -> B) (u : B) (g : A -> B) (l : list A) : B := fold_right (fun x acc => f (g x) acc) u l.
Lemma big_cons {A B} (f : B -> B -> B) u (g : A -> B) x l : bigop f u g (x :: l) = f (g x) (bigop f u g l).
Proof. reflexivity. Qed.
Lemma big_map {A A' B} (f : B -> B -> B) u (h : A -> A') (g : A' -> B) l : bigop f u g (map h l) = bigop f u (fun x => g (h x)) l.
Proof. induction l as [|x l IH]; simpl; [reflexivity | rewrite IH; reflexivity]. Qed.
Section Big.
  Context {A B : Type} (f : B -> B -> B) (u : B).
  Hypothesis f_assoc : forall a b c, f a (f b c) = f (f a b) c.
  Hypothesis f_comm : forall a b, f a b = f b a.
  Hypothesis f_unit : forall a, f u a = a.
  Variable g : A -> B.
  Lemma big_app l1 l2 : bigop f u g (l1 ++ l2) = f (bigop f u g l1) (bigop f u g l2).
  Proof. induction l1 as [|x l IH]; simpl; [rewrite f_unit; reflexivity | rewrite IH; apply f_assoc]. Qed.
  Lemma big_perm l l' : Permutation l l' -> bigop f u g l = bigop f u g l'.
  Proof.
    induction 1 as [|x l l' _ IH|x y l|l l' l'' _ IH1 _ IH2]; simpl.
    - reflexivity.
    - rewrite IH. reflexivity.
    - rewrite !f_assoc, (f_comm (g y)). reflexivity.
    - rewrite IH1. exact IH2.
  Qed.
  Lemma fold_left_big (l : list B) acc : fold_left f l acc = f acc (bigop f u (fun x => x) l).
  Proof.
    revert acc. induction l as [|x l IH]; intros acc; simpl; [rewrite f_comm, f_unit; reflexivity|]. rewrite IH. symmetry. apply f_assoc.
  Qed.
End Big.
Lemma bigor_app {A} (g : A -> Z) l1 l2 : bigop Z.lor 0 g (l1 ++ l2) = Z.lor (bigop Z.lor 0 g l1) (bigop Z.lor 0 g l2).
Proof. apply big_app; [apply Z.lor_assoc | apply Z.lor_0_l]. Qed.
Lemma bigor_perm {A} (g : A -> Z) l l' : Permutation l l' -> bigop Z.lor 0 g l = bigop Z.lor 0 g l'.
Proof. apply big_perm; [apply Z.lor_assoc | apply Z.lor_comm]. Qed.
Lemma bigsum_app {A} (g : A -> Z) l1 l2 : bigop Z.add 0 g (l1 ++ l2) = bigop Z.add 0 g l1 + bigop Z.add 0 g l2.
Proof. apply big_app; [apply Z.add_assoc | apply Z.add_0_l]. Qed.
Lemma bigsum_perm {A} (g : A -> Z) l l' : Permutation l l' -> bigop Z.add 0 g l = bigop Z.add 0 g l'.
Proof. apply big_perm; [apply Z.add_assoc | apply Z.add_comm]. Qed.
