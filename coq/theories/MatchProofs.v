(** MatchProofs.v — MatchExpr is sound (C16): whenever it succeeds, the matched expression IS the pattern with every wildcard
    replaced by the expression bound to it in the returned dictionary (up to ==), and bindings made earlier are never lost. *)
From Coq Require Import ZArith List Bool.
From Mx Require Import Expr ExprProofs.
Import ListNotations.
Open Scope list_scope.
Open Scope Z_scope.

Section Match.
  Variable tks : list expr.

  (** e is an instance of the pattern m under the bindings res: wildcards stand for the expression bound to them, everything
      else is matched constructor by constructor, leaves up to == *)
  Fixpoint inst (res : binds) (m e : expr) {struct m} : Prop :=
    if mem_eqb m tks then match dict_get res m with Some v => expr_eqb v e = true | None => False end else
    match m, e with
    | EOp op' args', EOp op args =>
        op = op' /\ (fix go (l' l : list expr) : Prop :=
                       match l', l with [], [] => True | a' :: r', a :: r => inst res a' a /\ go r' r | _, _ => False end) args' args
    | EMem a' w' s', EMem a w s => w = w' /\ opt_eqb expr_eqb s s' = true /\ inst res a' a
    | ESlice a' lo' hi', ESlice a lo hi => lo = lo' /\ hi = hi' /\ inst res a' a
    | ECond c' a' b', ECond c a b => inst res c' c /\ inst res a' a /\ inst res b' b
    | ECompose args', ECompose args =>
        (fix go (l' l : list slot) : Prop :=
           match l', l with
           | [], [] => True
           | s' :: r', s0 :: r => slot_lo s0 = slot_lo s' /\ slot_hi s0 = slot_hi s' /\ inst res (slot_e s') (slot_e s0) /\ go r' r
           | _, _ => False end) args' args
    | _, _ => expr_eqb e m = true
    end.

  (** res' keeps every binding of res (possibly replaced by an == value) *)
  Definition extends (res res' : binds) : Prop :=
    forall k v, dict_get res k = Some v -> exists v', dict_get res' k = Some v' /\ expr_eqb v' v = true.
  Lemma extends_refl res : extends res res.
  Proof. intros k v H. exists v. split; [exact H | apply eqb_refl]. Qed.
  Lemma extends_trans r1 r2 r3 : extends r1 r2 -> extends r2 r3 -> extends r1 r3.
  Proof.
    intros A B k v H. destruct (A k v H) as (v2 & H2 & E2). destruct (B k v2 H2) as (v3 & H3 & E3).
    exists v3. split; [exact H3 | apply (eqb_trans v3 v2 v); assumption].
  Qed.

  Lemma inst_extends res res' : extends res res' -> forall m e, inst res m e -> inst res' m e.
  Proof.
    intros X. induction m using expr_ind'; intros e0 H0; simpl in *;
      (destruct (mem_eqb _ tks) eqn:J;
       [ match type of H0 with match ?d with _ => _ end => destruct d as [bv|] eqn:G; [|contradiction] end;
         destruct (X _ _ G) as (bv' & G' & E'); rewrite G'; apply (eqb_trans bv' bv e0); assumption |]).
    - exact H0.
    - exact H0.
    - destruct e0; try exact H0. destruct H0 as (A & B & C). repeat split; auto.
    - destruct e0 as [| | |op0 args0| | | |]; try exact H0. destruct H0 as [A B]. split; [exact A|].
      clear J. revert args0 B. induction H as [|x l Hx _ IHl]; intros [|y l0] B; try exact B. destruct B as [B1 B2]. split; [apply Hx; exact B1 | apply IHl; exact B2].
    - destruct e0; try exact H0. destruct H0 as (A & B & C). repeat split; auto.
    - destruct e0; try exact H0. destruct H0 as (A & B & C). repeat split; auto.
    - destruct e0 as [| | | | | |args0|]; try exact H0.
      clear J. revert args0 H0. induction H as [|x l Hx _ IHl]; intros [|y l0] B; try exact B. destruct B as (B1 & B2 & B3 & B4).
      split; [exact B1|]. split; [exact B2|]. split; [apply Hx; exact B3 | apply IHl; exact B4].
    - exact H0.
  Qed.

  Lemma dict_get_app (d : binds) k v k2 : dict_get (d ++ [(k, v)]) k2 = match dict_get d k2 with Some x => Some x | None => if expr_eqb k k2 then Some v else None end.
  Proof. induction d as [|[k' v'] d IH]; simpl; [reflexivity|]. destruct (expr_eqb k' k2); [reflexivity | exact IH]. Qed.
  Lemma dict_get_set_same (d : binds) k v : dict_get (dict_set d k v) k = Some v.
  Proof.
    induction d as [|[k' v'] d IH]; simpl; [rewrite eqb_refl; reflexivity|]. destruct (expr_eqb k' k) eqn:E; simpl; rewrite E; [reflexivity | exact IH].
  Qed.
  Lemma dict_get_set_other (d : binds) k v k2 : dict_get (dict_set d k v) k2 = Some v \/ dict_get (dict_set d k v) k2 = dict_get d k2.
  Proof.
    induction d as [|[k' v'] d IH]; simpl.
    - destruct (expr_eqb k k2); [left; reflexivity | right; reflexivity].
    - destruct (expr_eqb k' k) eqn:E; simpl.
      + destruct (expr_eqb k' k2); [left; reflexivity | right; reflexivity].
      + destruct (expr_eqb k' k2); [right; reflexivity | exact IH].
  Qed.
  Lemma dict_get_set_cases (d : binds) k v v0 k2 : dict_get d k = Some v0 ->
    dict_get (dict_set d k v) k2 = dict_get d k2 \/ (dict_get (dict_set d k v) k2 = Some v /\ dict_get d k2 = Some v0).
  Proof.
    induction d as [|[k' v'] d IH]; simpl; [discriminate|]. destruct (expr_eqb k' k) eqn:E; simpl; intros H.
    - inversion H; subst. destruct (expr_eqb k' k2); [right; split; reflexivity | left; reflexivity].
    - destruct (expr_eqb k' k2); [left; reflexivity | apply IH; exact H].
  Qed.

  Lemma test_set_joker e v res r res' : mem_eqb v tks = true -> test_set e v tks res = (r, res') -> r <> RFalse ->
    extends res res' /\ inst res' v e.
  Proof.
    intros J H NR. unfold test_set in H. rewrite J in H. cbn [negb] in H.
    assert (Iv : forall res0, (exists bv, dict_get res0 v = Some bv /\ expr_eqb bv e = true) -> inst res0 v e).
    { intros res0 (bv & G & E). destruct v; simpl; rewrite J; rewrite G; exact E. }
    destruct (dict_get res v) as [e'|] eqn:G.
    - destruct (expr_eqb e' e) eqn:E; inversion H; subst; [|contradiction]. split.
      + intros k val Hk. destruct (dict_get_set_cases res v e e' k G) as [U|[N O]].
        * exists val. split; [rewrite U; exact Hk | apply eqb_refl].
        * exists e. split; [exact N|]. rewrite Hk in O. inversion O; subst. rewrite eqb_sym. exact E.
      + apply Iv. exists e. split; [apply dict_get_set_same | apply eqb_refl].
    - inversion H; subst. split.
      + intros k val Hk. exists val. split; [rewrite dict_get_app, Hk; reflexivity | apply eqb_refl].
      + apply Iv. exists e. split; [rewrite dict_get_app, G, eqb_refl; reflexivity | apply eqb_refl].
  Qed.

  Lemma test_set_leaf e v res r res' : mem_eqb v tks = false -> test_set e v tks res = (r, res') -> r <> RFalse ->
    res' = res /\ expr_eqb e v = true.
  Proof.
    intros J H NR. unfold test_set in H. rewrite J in H. cbn [negb] in H. destruct (expr_eqb e v); inversion H; subst; [auto | contradiction].
  Qed.
  Lemma inst_leaf res m e : mem_eqb m tks = false -> (match e with EInt _ _ _ | EId _ _ _ _ => True | _ => False end) -> expr_eqb e m = true -> inst res m e.
  Proof. intros J L E. destruct m; simpl; rewrite J; destruct e; try contradiction; exact E. Qed.

  (** what was matched before a later sub-match stays matched after it *)
  Lemma chain r1 ra r2 m e : extends r1 ra -> inst ra m e -> extends ra r2 -> extends r1 r2 /\ inst r2 m e.
  Proof. intros X I X2. split; [exact (extends_trans _ _ _ X X2) | exact (inst_extends _ _ X2 _ _ I)]. Qed.

  (** a run that does not return RFalse has not taken a failing exit: it passed the checks before it, and went on *)
  Lemma failed {Q : Prop} {res res' : binds} {r} : (RFalse, res) = (r, res') -> r <> RFalse -> Q.
  Proof. intros H NR. inversion H; subst. contradiction. Qed.
  Lemma checked {a b : bool} {res res' : binds} {X r} : (if negb a || negb b then (RFalse, res) else X) = (r, res') -> r <> RFalse ->
    a = true /\ b = true /\ X = (r, res').
  Proof. intros H NR. destruct a, b; try exact (failed H NR). auto. Qed.
  Lemma not_falsy {r1} {res1 res' : binds} {X r} : (if falsy r1 res1 then (RFalse, res1) else X) = (r, res') -> r <> RFalse ->
    r1 <> RFalse /\ X = (r, res').
  Proof. intros H NR. split; [intros -> | destruct (falsy r1 res1)]; [exact (failed H NR) | exact (failed H NR) | exact H]. Qed.

  Theorem match_sound : forall e m res r res', match_expr tks e m res = (r, res') -> r <> RFalse -> extends res res' /\ inst res' m e.
  Proof.
    induction e using expr_ind'; intros m res0 r0 res' HM NR;
      (destruct (mem_eqb m tks) eqn:J; [simpl in HM; rewrite J in HM; apply (test_set_joker _ _ _ _ _ J HM NR)|]);
      simpl in HM; rewrite J in HM.
    1-2: destruct (test_set_leaf _ _ _ _ _ J HM NR) as [-> E]; split; [apply extends_refl | apply inst_leaf; [exact J | exact I | exact E]].
    - destruct m as [| |a' w' s'| | | | |]; try exact (failed HM NR).
      destruct (checked HM NR) as (C1 & C2 & HM'). apply Z.eqb_eq in C1.
      destruct (IHe _ _ _ _ HM' NR) as [X Y]. split; [exact X|]. simpl. rewrite J. repeat split; assumption.
    - destruct m as [| | |op' args'| | | |]; try exact (failed HM NR).
      destruct (checked HM NR) as (C1 & C2 & HM'). apply String.eqb_eq in C1. apply Nat.eqb_eq in C2.
      simpl. rewrite J. clear J HM. revert args' res0 HM' C2.
      induction H as [|a l Ha _ IHl]; intros [|a' l'] res1 HM Ln; try discriminate Ln.
      + inversion HM; subst. split; [apply extends_refl | split; [reflexivity | exact I]].
      + simpl in HM. destruct (match_expr tks a a' res1) as [rr resa] eqn:Ea.
        assert (NRa : rr <> RFalse) by (intros ->; exact (failed HM NR)).
        destruct (Ha _ _ _ _ Ea NRa) as [Xa Ia].
        destruct (IHl l' resa) as (Xr & _ & Ir); [destruct rr; [contradiction | exact HM | exact HM] | injection Ln; auto |].
        destruct (chain _ _ _ _ _ Xa Ia Xr) as [X Y]. repeat split; assumption.
    - destruct m as [| | | |c' a' b'| | |]; try exact (failed HM NR).
      destruct (match_expr tks e1 c' res0) as [r1 res1] eqn:E1. destruct (not_falsy HM NR) as [N1 HM1].
      destruct (match_expr tks e2 a' res1) as [r2 res2] eqn:E2. destruct (not_falsy HM1 NR) as [N2 HM2].
      destruct (match_expr tks e3 b' res2) as [r3 res3] eqn:E3. destruct (not_falsy HM2 NR) as [N3 HM3]. inversion HM3; subst.
      destruct (IHe1 _ _ _ _ E1 N1) as [X1 I1]. destruct (IHe2 _ _ _ _ E2 N2) as [X2 I2]. destruct (IHe3 _ _ _ _ E3 N3) as [X3 I3].
      destruct (chain _ _ _ _ _ X2 I2 X3) as [X23 I2']. destruct (chain _ _ _ _ _ X1 I1 X23) as [X I1'].
      simpl. rewrite J. repeat split; assumption.
    - destruct m as [| | | | |e1' lo' hi'| |]; try exact (failed HM NR).
      destruct (checked HM NR) as (C1 & C2 & HM'). apply Z.eqb_eq in C1, C2.
      destruct (IHe _ _ _ _ HM' NR) as [X Y]. split; [exact X|]. simpl. rewrite J. repeat split; assumption.
    - destruct m as [| | | | | |args'|]; try exact (failed HM NR).
      destruct (negb _) eqn:Ln in HM; [exact (failed HM NR)|]. apply negb_false_iff, Nat.eqb_eq in Ln.
      simpl. rewrite J. clear J. revert args' res0 HM Ln.
      induction H as [|[[a lo] hi] l Ha _ IHl]; intros [|[[a' lo'] hi'] l'] res1 HM Ln; try discriminate Ln.
      + inversion HM; subst. split; [apply extends_refl | exact I].
      + simpl in HM. destruct (checked HM NR) as (C1 & C2 & HM'). apply Z.eqb_eq in C1, C2.
        destruct (match_expr tks a a' res1) as [rr resa] eqn:Ea. destruct (not_falsy HM' NR) as [Na HMr].
        destruct (Ha _ _ _ _ Ea Na) as [Xa Ia].
        destruct (IHl l' resa) as [Xr Ir]; [exact HMr | injection Ln; auto |].
        destruct (chain _ _ _ _ _ Xa Ia Xr) as [X Y]. repeat split; assumption.
    - exact (failed HM NR).
  Qed.
End Match.
