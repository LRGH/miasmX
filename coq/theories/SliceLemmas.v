(** SliceLemmas.v — bit-vector facts behind the slice rules of the simplifier (C05). *)
From Coq Require Import ZArith List Bool Lia.
From Mx Require Import Expr Bits.
Import ListNotations.
Open Scope Z_scope.

Lemma slice_slice v lo hi lo2 hi2 : 0 <= lo -> lo <= hi -> hi <= hi2 - lo2 ->
  wrap (hi - lo) (Z.shiftr (wrap (hi2 - lo2) (Z.shiftr v lo2)) lo) = wrap (hi - lo) (Z.shiftr v (lo + lo2)).
Proof.
  intros H1 H2 H4. apply wrap_eq_bits; [lia|]. intros i Hi. rewrite !Z.shiftr_spec by lia. rewrite wrap_bits by lia. rewrite Z.shiftr_spec by lia.
  replace (i + lo <? hi2 - lo2) with true by (symmetry; apply Z.ltb_lt; lia). cbn [andb]. f_equal. lia.
Qed.

(** the constant rule: uint64(v >> lo) & (2^total - 1), cast to total bits *)
Lemma slice_int v lo total : 0 < total -> total <= 64 ->
  wrap total (Z.land (wrap 64 (Z.shiftr v lo)) (wrap 64 (2 ^ total - 1))) = wrap total (Z.shiftr v lo).
Proof.
  intros H2 H3. apply wrap_eq_bits; [lia|]. intros i Hi. rewrite Z.land_spec, !wrap_bits by lia.
  replace (i <? 64) with true by (symmetry; apply Z.ltb_lt; lia). cbn [andb].
  replace (2 ^ total - 1) with (Z.ones total) by (rewrite Z.ones_equiv; lia). rewrite Z.ones_spec_low by lia. apply andb_true_r.
Qed.

(** little-endian narrowing of a memory read: the low k bytes *)
Section Mem.
  Variable mu : Z -> Z.
  Lemma le_read_lt a n : 0 <= le_read mu a n < 256 ^ Z.of_nat n.
  Proof.
    revert a. induction n as [|n IH]; intros a; cbn [le_read]; [simpl; lia|].
    rewrite Nat2Z.inj_succ, Z.pow_succ_r by lia. pose proof (IH (a + 1)) as B. pose proof (Z.mod_pos_bound (mu (wrap 32 a)) 256 ltac:(lia)) as Bb.
    set (P := 256 ^ Z.of_nat n) in *. set (R := le_read mu (a + 1) n) in *. set (b := mu (wrap 32 a) mod 256) in *. lia.
  Qed.
  Lemma le_read_low a n m : (m <= n)%nat -> (le_read mu a n) mod 256 ^ Z.of_nat m = le_read mu a m.
  Proof.
    revert a n. induction m as [|m IH]; intros a n L.
    - simpl. apply Z.mod_1_r.
    - destruct n as [|n]; [lia|]. cbn [le_read]. rewrite Nat2Z.inj_succ, Z.pow_succ_r by lia.
      specialize (IH (a + 1) n ltac:(lia)). pose proof (le_read_lt (a + 1) m) as B. pose proof (Z.mod_pos_bound (mu (wrap 32 a)) 256 ltac:(lia)) as Bb.
      set (b := mu (wrap 32 a) mod 256) in *. set (R := le_read mu (a + 1) n) in *.
      assert (P : 0 < 256 ^ Z.of_nat m) by (apply Z.pow_pos_nonneg; lia).
      rewrite <- IH. symmetry. apply (Z.mod_unique_pos _ _ (R / 256 ^ Z.of_nat m)); [pose proof (Z.mod_pos_bound R (256 ^ Z.of_nat m) P); lia|].
      pose proof (Z.div_mod R (256 ^ Z.of_nat m) ltac:(lia)). lia.
  Qed.
  Lemma mem_read_narrow a w hi : 0 < hi -> hi < w -> hi mod 8 = 0 ->
    wrap hi (mem_read mu a w) = mem_read mu a hi.
  Proof.
    intros H1 H2 H3. unfold mem_read.
    assert (Eh : hi = 8 * (hi / 8)) by (pose proof (Z.div_mod hi 8 ltac:(lia)); lia).
    assert (Nh : (hi + 7) / 8 = hi / 8) by (rewrite Eh at 1; replace (8 * (hi / 8) + 7) with (7 + (hi / 8) * 8) by lia; rewrite Z.div_add by lia; reflexivity).
    set (k := hi / 8) in *. assert (Pk : 0 < k) by lia.
    assert (Hk : 2 ^ hi = 256 ^ Z.of_nat (Z.to_nat k)).
    { rewrite Z2Nat.id by lia. rewrite Eh. change 256 with (2 ^ 8). rewrite <- Z.pow_mul_r by lia. reflexivity. }
    rewrite Nh. unfold wrap.
    assert (Lw : (Z.to_nat k <= Z.to_nat ((w + 7) / 8))%nat).
    { apply Z2Nat.inj_le; [lia | apply Z.div_pos; lia | unfold k; apply Z.div_le_mono; lia]. }
    rewrite mod_mod_pow by lia. rewrite Hk. rewrite (le_read_low a _ _ Lw). rewrite <- Hk. symmetry. apply Z.mod_small.
    pose proof (le_read_lt a (Z.to_nat k)) as B. rewrite <- Hk in B. exact B.
  Qed.
End Mem.
