(** SemMulDivFacts.v — reflection obligation: every mul / imul (one, two, three operands) / div / idiv form of the lifted dump regenerated
    from /repo is, node for node, the mirror SemMulDiv.mirror_muldiv of its dumped operands. *)
From Coq Require Import ZArith List Bool.
From Mx Require Import Expr Wf SemMulDiv LiftTie.
From MxGen Require Import LiftAll.
Import ListNotations.
Definition muldiv_tie_ok : lcase -> bool := tie muldiv_of (fun k c l => eq_mirror true (mirror_muldiv k (lc_args c)) l).
Lemma muldiv_forms_are_mirrors : forallb (forallb muldiv_tie_ok) shards = true.
Proof. vm_compute. reflexivity. Qed.
Lemma muldiv_forms_lifted : forall sh c k l, In sh shards -> In c sh -> muldiv_of (lc_mnemo c) = Some k -> lc_lift c = Some l ->
  exists m, mirror_muldiv k (lc_args c) = Some m /\ forall rho mu iota, map (eval rho mu iota) l = map (eval rho mu iota) m.
Proof. intros sh c k l Hs Hc Hk Hl. exact (eq_mirror_strict _ _ (tie_In _ _ _ muldiv_forms_are_mirrors sh c k l Hs Hc Hk Hl)). Qed.
Definition n_muldiv : nat :=
  fold_left (fun acc sh => fold_left (fun acc c => match muldiv_of (lc_mnemo c), lc_lift c with Some k, Some l => S acc | _, _ => acc end) sh acc) shards O.
Lemma many_muldiv_forms : (350 <= n_muldiv)%nat.
Proof. apply Nat.leb_le. vm_compute. reflexivity. Qed.
