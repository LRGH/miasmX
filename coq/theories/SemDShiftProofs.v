(** SemDShiftProofs.v — what the destination value of the double-shift mirror means, for all operand expressions and all states. *)
From Coq Require Import ZArith List Bool String Lia.
From Mx Require Import Expr ExprProofs Bits Sem SemProofs SemShift SemShiftProofs SemDShift.
Import ListNotations.
Open Scope Z_scope.

Lemma is_dshift_mirror_sound k args l : is_dshift_mirror k args l = true ->
  exists a b c x, args = [a; b; c] /\ last_expr l = Some x /\ operand_ok a = true /\ operand_ok b = true /\ operand_ok c = true /\ size a = size b /\
    (size a = 16 \/ size a = 32) /\ forall rho mu iota, eval rho mu iota x = eval rho mu iota (mk_aff a (dshift_val k a b c)).
Proof.
  unfold is_dshift_mirror. destruct args as [|a [|b [|c [|? ?]]]]; try discriminate. destruct (last_expr l) as [x|]; try discriminate.
  rewrite !andb_true_iff, orb_true_iff, !Z.eqb_eq. intros [[[[[Oa Ob] Oc] Sab] S] E].
  exists a, b, c, x. repeat split; try assumption. intros rho mu iota. apply eval_eqb. exact E.
Qed.

Section Meaning.
  Variable rho : string -> Z.
  Variable mu : Z -> Z.
  Variable iota : string -> list Z -> Z.
  Notation ev := (eval rho mu iota).
  Variables a b : expr.
  Hypothesis Oa : operand_ok a = true.
  Hypothesis Ob : operand_ok b = true.
  Hypothesis Sab : size a = size b.
  Let Pa := proj1 (operand_range rho mu iota a Oa).
  Let Ra := proj2 (operand_range rho mu iota a Oa).
  Let Rb := proj2 (operand_range rho mu iota b Ob).

  (** the count of the other half: the width minus a count s of value c <= n *)
  Lemma complement_count s c : ev s = c -> 0 <= c <= size a -> ev (EOp "-" [int_from a (size a); s]) = size a - c.
  Proof.
    intros Es Hc. pose proof (Z.pow_gt_lin_r 2 (size a)). rewrite ev_sub, Es, ev_int_from by (cbn [int_from size]; lia).
    apply wrap_small. cbn [int_from size]. lia.
  Qed.
  (** shrd: the destination shifted right, the vacated high bits filled from the low bits of the source *)
  Theorem shrd_value c : operand_ok c = true -> ev c <= size a ->
    ev (shrd_val a b c) = Z.lor (ev a / 2 ^ ev c) ((ev b * 2 ^ (size a - ev c)) mod 2 ^ size a).
  Proof.
    intros Oc Hc. destruct (operand_range rho mu iota c Oc) as [Pc Rc]. unfold shrd_val.
    pose proof (complement_count c (ev c) eq_refl ltac:(lia)) as K.
    rewrite ev_or, size_op, (ev_shr rho mu iota a c _ Oa eq_refl), (ev_shl rho mu iota b _ _ Ob K), <- Sab, Z.shiftr_div_pow2, Z.shiftl_mul_pow2 by (rewrite ?size_op; lia).
    apply wrap_small, lor_lt_pow2; [lia | apply div_pow2_range; [exact Ra | lia] | apply wrap_range; lia].
  Qed.

  (** shld: the count is masked to five bits; count 0 keeps the destination; otherwise the destination shifted left, the vacated low bits
      filled from the high bits of the source *)
  Theorem shld_value c : (size a = 16 \/ size a = 32) -> (size c = 8 \/ size c = 16 \/ size c = 32) -> let k := ev c mod 32 in k <= size a ->
    ev (shld_val a b c) = if k =? 0 then ev a else Z.lor ((ev a * 2 ^ k) mod 2 ^ size a) (ev b / 2 ^ (size a - k)).
  Proof.
    intros Hn Sc k Hk. pose proof (width_holds_32 _ Sc) as C32. pose proof (Z.mod_pos_bound (ev c) 32 ltac:(lia)) as K0. fold k in K0.
    assert (Ek : ev (shld_count a c) = k).
    { apply (ev_and_ones rho mu iota c _ 5); [lia | lia | apply (ev_int_from rho mu iota a 31)]. cbn [int_from size]. destruct Hn as [-> | ->]; split; reflexivity || lia. }
    pose proof (complement_count _ k Ek ltac:(lia)) as K.
    unfold shld_val. rewrite ev_cond, Ek. destruct (k =? 0); [reflexivity|]. unfold shld_or.
    rewrite ev_or, size_op, (ev_shl rho mu iota a _ _ Oa Ek), (ev_shr rho mu iota b _ _ Ob K), Z.shiftl_mul_pow2, Z.shiftr_div_pow2 by (rewrite ?size_op; lia).
    apply wrap_small, lor_lt_pow2; [lia | apply wrap_range; lia | apply div_pow2_range; [rewrite Sab; exact Rb | lia]].
  Qed.
End Meaning.
