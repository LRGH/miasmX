(** ComposeProofs.v — the concatenation rules of the simplifier (merge_sliceto_slice of expression_helper.py, model Simp.v):
    the value of a concatenation is the OR of its fields, and classification, sorting by start, merging of adjacent constants
    and merging of adjacent slices of one source preserve that OR and how often each bit position is covered, and leave
    every argument slot inside a slot of the result ([merged], stated once over pieces and used for each stage).  Pure facts
    about slot lists; the well-formedness bookkeeping is in SimpProofs.v. *)
From Coq Require Import ZArith List Bool String Lia Permutation Sorted.
From Mx Require Import ModInt Expr ExprProofs Bits Simp.
Import ListNotations.
Open Scope list_scope.
Open Scope Z_scope.

Definition fld (v lo hi : Z) : Z := Z.shiftl (wrap (hi - lo) v) lo.
Lemma fld_bits v lo hi i : 0 <= lo -> lo <= hi -> 0 <= i ->
  Z.testbit (fld v lo hi) i = (lo <=? i) && (i <? hi) && Z.testbit v (i - lo).
Proof. intros Hlo Hlh Hi. unfold fld. rewrite testbit_slot by lia. replace (lo + (hi - lo)) with hi by lia. reflexivity. Qed.
Lemma fld_range v lo hi n : 0 <= lo -> lo <= hi -> hi <= n -> 0 <= fld v lo hi < 2 ^ n.
Proof.
  intros Hlo Hlh Hn. apply below_pow2; [lia|]. intros i Hi. rewrite fld_bits by lia. cmp_cases.
Qed.

Lemma fld_split v lo mid hi : 0 <= lo -> lo <= mid -> mid <= hi ->
  fld v lo hi = Z.lor (fld (Z.shiftr v (mid - lo)) mid hi) (fld v lo mid).
Proof.
  intros H1 H2 H3. apply Z.bits_inj'. intros i Hi. rewrite Z.lor_spec, !fld_bits by lia.
  destruct (Z.leb_spec mid i); cbn [andb orb].
  - rewrite Z.shiftr_spec by lia. replace (i - mid + (mid - lo)) with (i - lo) by lia. destruct (Z.testbit v (i - lo)); cmp_cases.
  - destruct (Z.testbit v (i - lo)); cmp_cases.
Qed.
Lemma shl_add_range hv lv k m : 0 <= k -> 0 <= m -> 0 <= lv < 2 ^ k -> 0 <= hv < 2 ^ m -> 0 <= Z.shiftl hv k + lv < 2 ^ (m + k).
Proof.
  intros Hk Hm Hl Hh. rewrite Z.shiftl_mul_pow2, Z.pow_add_r by lia.
  assert (hv * 2 ^ k <= (2 ^ m - 1) * 2 ^ k) by (apply Z.mul_le_mono_nonneg_r; lia).
  assert (0 <= hv * 2 ^ k) by (apply Z.mul_nonneg_nonneg; lia). lia.
Qed.
Lemma fld_join hv lv lo mid hi : 0 <= lo -> lo <= mid -> mid <= hi -> 0 <= lv < 2 ^ (mid - lo) ->
  Z.lor (fld hv mid hi) (fld lv lo mid) = fld (Z.shiftl hv (mid - lo) + lv) lo hi.
Proof.
  intros H1 H2 H3 Hl. assert (P : 2 ^ (mid - lo) <> 0) by (apply Z.pow_nonzero; lia).
  rewrite (fld_split _ lo mid hi) by lia. rewrite Z.shiftl_mul_pow2, Z.shiftr_div_pow2 by lia. f_equal.
  - rewrite Z.div_add_l, Z.div_small by lia. f_equal. lia.
  - unfold fld, wrap. rewrite Z.add_comm, Z.mod_add by exact P. reflexivity.
Qed.

(** occupancy: how many slots cover bit position i.  Merging adjacent intervals preserves it pointwise, so "no two slots overlap"
    (occupancy at most 1 everywhere) is preserved *)
Definition ind (lo hi i : Z) : Z := if (lo <=? i) && (i <? hi) then 1 else 0.
Lemma ind_join lo mid hi i : lo <= mid -> mid <= hi -> ind mid hi i + ind lo mid i = ind lo hi i.
Proof. intros H1 H2. unfold ind. cmp_cases. Qed.
Lemma ind_range lo hi i : 0 <= ind lo hi i <= 1.
Proof. unfold ind. destruct ((lo <=? i) && (i <? hi)); lia. Qed.
Definition occ (l : list slot) (i : Z) : Z := fold_right (fun s acc => ind (slot_lo s) (slot_hi s) i + acc) 0 l.
Lemma occ_app l1 l2 i : occ (l1 ++ l2) i = occ l1 i + occ l2 i.
Proof. exact (bigsum_app (fun s => ind (slot_lo s) (slot_hi s) i) l1 l2). Qed.
Lemma occ_perm l l' i : Permutation l l' -> occ l i = occ l' i.
Proof. exact (bigsum_perm (fun s => ind (slot_lo s) (slot_hi s) i) l l'). Qed.
Lemma occ_nonneg l i : 0 <= occ l i.
Proof. induction l as [|s l IH]; simpl; [lia|]. pose proof (ind_range (slot_lo s) (slot_hi s) i). lia. Qed.

Section Fields.
  Variable rho : string -> Z.
  Variable mu : Z -> Z.
  Variable iota : string -> list Z -> Z.
  Notation ev := (eval rho mu iota).
  Definition sval (s : slot) : Z := fld (ev (slot_e s)) (slot_lo s) (slot_hi s).
  Definition V (l : list slot) : Z := fold_right (fun s acc => Z.lor (sval s) acc) 0 l.

  Lemma eval_compose_V l : ev (ECompose l) = V l.
  Proof.
    rewrite eval_compose, (fold_left_big Z.lor 0 Z.lor_assoc Z.lor_comm Z.lor_0_l), Z.lor_0_l.
    exact (big_map Z.lor 0 (slot_val rho mu iota) (fun x => x) l).
  Qed.
  Lemma V_app l1 l2 : V (l1 ++ l2) = Z.lor (V l1) (V l2).
  Proof. exact (bigor_app sval l1 l2). Qed.
  Lemma V_perm l l' : Permutation l l' -> V l = V l'.
  Proof. exact (bigor_perm sval l l'). Qed.
End Fields.

Lemma insert_start_perm {A} (x : Z * A) : forall l l', insert_start x l = Ok l' -> Permutation (x :: l) l'.
Proof.
  induction l as [|y r IH]; intros l' H; simpl in H; [inversion H; apply Permutation_refl|].
  destruct (fst x <? fst y); [inversion H; apply Permutation_refl|]. destruct (fst x =? fst y); [discriminate|].
  destruct (insert_start x r) as [r'| |] eqn:E; try discriminate. cbn [bind] in H. inversion H; subst.
  eapply Permutation_trans; [apply perm_swap|]. apply perm_skip. apply IH. reflexivity.
Qed.
Lemma sort_start_perm {A} : forall (l l' : list (Z * A)), sort_start l = Ok l' -> Permutation l l'.
Proof.
  induction l as [|x r IH]; intros l' H; simpl in H; [inversion H; constructor|].
  destruct (sort_start r) as [r'| |] eqn:E; try discriminate. cbn [bind] in H.
  eapply Permutation_trans; [apply perm_skip; apply IH; reflexivity|]. apply insert_start_perm. exact H.
Qed.
Definition asc {A} (l : list (Z * A)) : Prop := StronglySorted (fun x y => fst x < fst y) l.
Lemma insert_start_asc {A} (x : Z * A) : forall l l', asc l -> insert_start x l = Ok l' -> asc l'.
Proof.
  induction l as [|y r IH]; intros l' As H; simpl in H; [inversion H; repeat constructor|].
  apply StronglySorted_inv in As as [Ar Fy]. destruct (Z.ltb_spec (fst x) (fst y)) as [L|L].
  - inversion H; subst. constructor; [constructor; assumption|]. constructor; [exact L|].
    eapply Forall_impl; [|exact Fy]. intros z Hz. cbv beta in Hz. lia.
  - destruct (Z.eqb_spec (fst x) (fst y)) as [Q|Q]; [discriminate|].
    destruct (insert_start x r) as [r'| |] eqn:E; try discriminate. inversion H; subst.
    (* y stays below the whole of r', which is r with x put in *)
    constructor; [exact (IH r' Ar eq_refl)|]. apply (Permutation_Forall (insert_start_perm x r r' E)). constructor; [lia | exact Fy].
Qed.
Lemma sort_start_asc {A} : forall (l l' : list (Z * A)), sort_start l = Ok l' -> asc l'.
Proof.
  induction l as [|x r IH]; intros l' H; simpl in H; [inversion H; constructor|].
  destruct (sort_start r) as [r'| |] eqn:E; try discriminate. cbn [bind] in H. apply (insert_start_asc x r' l' (IH r' eq_refl) H).
Qed.
Lemma asc_nodup {A} (l : list (Z * A)) : asc l -> NoDup (map fst l).
Proof.
  unfold asc. induction 1 as [|x r _ IH F]; simpl; constructor; [|exact IH].
  intros I. apply in_map_iff in I as (y & E & Iy). rewrite Forall_forall in F. specialize (F y Iy). lia.
Qed.

(** pieces: a field value with its extent [lo, hi).  Constants, slices of one source and slots are all read as pieces, so
    that what merging preserves is said once *)
Notation piece := (Z * Z * Z)%type (only parsing).
Definition t_v (t : piece) : Z := fst (fst t).
Definition t_lo (t : piece) : Z := snd (fst t).
Definition t_hi (t : piece) : Z := snd t.
Notation PV := (bigop Z.lor 0 t_v).
Notation pocc ps i := (bigop Z.add 0 (fun t => ind (t_lo t) (t_hi t) i) ps).
Definition inside (t c : piece) : Prop := t_lo c <= t_lo t /\ t_hi t <= t_hi c.
(** [ps'] stands for [ps]: the same OR of fields, the same occupancy, and every piece of [ps] lies inside one of [ps'] *)
Definition merged (ps' ps : list piece) : Prop :=
  PV ps' = PV ps /\ (forall i, pocc ps' i = pocc ps i) /\ Forall (fun t => exists c, In c ps' /\ inside t c) ps.

Lemma merged_refl ps : merged ps ps.
Proof.
  split; [reflexivity|]. split; [reflexivity|]. apply Forall_forall. intros t Ht. exists t. unfold inside. split; [exact Ht | lia].
Qed.
Lemma merged_trans a b c : merged a b -> merged b c -> merged a c.
Proof.
  intros (V1 & O1 & F1) (V2 & O2 & F2). split; [congruence|]. split; [intros i; rewrite O1; apply O2|].
  rewrite Forall_forall in F1. eapply Forall_impl; [|exact F2]. intros t (m & Im & I1 & I2). destruct (F1 m Im) as (c' & Ic & I3 & I4).
  exists c'. unfold inside. split; [exact Ic | lia].
Qed.
Lemma merged_app a b a' b' : merged a b -> merged a' b' -> merged (a ++ a') (b ++ b').
Proof.
  intros (V1 & O1 & F1) (V2 & O2 & F2). split; [rewrite !bigor_app; congruence|]. split; [intros i; rewrite !bigsum_app, O1, O2; reflexivity|].
  apply Forall_app. split.
  - eapply Forall_impl; [|exact F1]. intros t (c & Ic & I). exists c. split; [apply in_or_app; left; exact Ic | exact I].
  - eapply Forall_impl; [|exact F2]. intros t (c & Ic & I). exists c. split; [apply in_or_app; right; exact Ic | exact I].
Qed.
Lemma merged_perm a a' b b' : Permutation a a' -> Permutation b b' -> merged a b -> merged a' b'.
Proof.
  intros Pa Pb (V1 & O1 & F1). split; [rewrite <- (bigor_perm _ _ _ Pa), <- (bigor_perm _ _ _ Pb); exact V1|].
  split; [intros i; rewrite <- (bigsum_perm _ _ _ Pa), <- (bigsum_perm _ _ _ Pb); apply O1|].
  apply (Permutation_Forall Pb). eapply Forall_impl; [|exact F1]. intros t (c & Ic & I). exists c. split; [apply (Permutation_in _ Pa Ic) | exact I].
Qed.
Lemma merged_join fc fd lo mid hi : lo <= mid -> mid <= hi -> merged [(Z.lor fc fd, lo, hi)] [(fc, mid, hi); (fd, lo, mid)].
Proof.
  intros H1 H2. split; [cbn; rewrite Z.lor_assoc; reflexivity|]. split; [intros i; cbn; pose proof (ind_join lo mid hi i H1 H2); lia|].
  repeat constructor; eexists; (split; [left; reflexivity|]); unfold inside; cbn; lia.
Qed.

(** a constant as merge_ints holds it, (value, lo, hi), read with the projections of a piece: its field, its piece, and what
    merging keeps of it: the extent inside [0, n), the value below 2^(hi - lo) *)
Definition tfld (t : Z * Z * Z) : Z := fld (t_v t) (t_lo t) (t_hi t).
Definition tpiece (t : Z * Z * Z) : piece := (tfld t, t_lo t, t_hi t).
Definition ok3 (n : Z) (t : Z * Z * Z) : Prop := 0 <= t_lo t /\ t_lo t < t_hi t /\ t_hi t <= n /\ 0 <= t_v t < 2 ^ (t_hi t - t_lo t).

(** what a run of absorptions from the current constant or slice [c] over [desc] ends in: [snd res] is what is left of [desc],
    [fst res] satisfies [P] and stands for [c] and everything absorbed.  A run stops (absorbs_none) or absorbs one more
    adjacent element (absorbs_more); the two run functions of the model are followed with these two moves *)
Definition absorbs {C} (P : C -> Prop) (pc : C -> piece) (c : C) (desc : list C) (res : C * list C) : Prop :=
  exists absorbed, desc = absorbed ++ snd res /\ P (fst res) /\ merged [pc (fst res)] (map pc (c :: absorbed)).
Lemma absorbs_none {C} (P : C -> Prop) pc c desc : P c -> absorbs P pc c desc (c, desc).
Proof. intros Pc. exists []. split; [reflexivity|]. split; [exact Pc | apply merged_refl]. Qed.
Lemma absorbs_more {C} (P : C -> Prop) pc c d c1 r res : merged [pc c1] [pc c; pc d] -> absorbs P pc c1 r res -> absorbs P pc c (d :: r) res.
Proof.
  intros J (ab & -> & Pr & M). exists (d :: ab). split; [reflexivity|]. split; [exact Pr|].
  apply (merged_trans _ _ _ M). apply (merged_app [_] [_; _] _ _ J (merged_refl _)).
Qed.

Lemma merge_ints_run_spec n : n <= 64 -> forall fuel desc cv cl ch, ok3 n (cv, cl, ch) -> Forall (ok3 n) desc ->
  absorbs (ok3 n) tpiece (cv, cl, ch) desc (merge_ints_run cv cl ch desc fuel).
Proof.
  (* the run functions recur on desc, so they compute only once desc is split, also at fuel 0 *)
  intros Hn. induction fuel as [|f IH]; intros desc cv cl ch Oc F; destruct desc as [|[[v lo] hi] r]; cbn [merge_ints_run];
    try apply absorbs_none, Oc.
  destruct (Z.eqb_spec hi cl) as [->|_]; [|apply absorbs_none, Oc].
  inversion F as [|? ? (A1 & A2 & A3 & A4) Fr]; subst. destruct Oc as (C1 & C2 & C3 & C4). cbn [t_v t_lo t_hi fst snd] in *.
  pose proof (shl_add_range cv v (cl - lo) (ch - cl) ltac:(lia) ltac:(lia) A4 C4) as R. replace (ch - cl + (cl - lo)) with (ch - lo) in R by lia.
  rewrite (wrap_small_le 64 (ch - lo)) by lia. apply (absorbs_more _ _ _ _ (Z.shiftl cv (cl - lo) + v, lo, ch)).
  - unfold tpiece, tfld. cbn [t_v t_lo t_hi fst snd]. rewrite <- fld_join by lia. apply merged_join; lia.
  - apply IH; [unfold ok3; cbn [t_v t_lo t_hi fst snd]; lia | exact Fr].
Qed.

Definition q_slo (q : Z * Z * Z * Z) : Z := fst (fst (fst q)).
Definition q_shi (q : Z * Z * Z * Z) : Z := snd (fst (fst q)).
Definition q_lo (q : Z * Z * Z * Z) : Z := snd (fst q).
Definition q_hi (q : Z * Z * Z * Z) : Z := snd q.
(** a slice of one source as the simplifier holds it: bits [q_slo, q_shi) of x placed at [q_lo, q_hi) *)
Definition qfld (x : Z) (q : Z * Z * Z * Z) : Z := fld (Z.shiftr x (q_slo q)) (q_lo q) (q_hi q).
Definition qpiece (x : Z) (q : Z * Z * Z * Z) : piece := (qfld x q, q_lo q, q_hi q).
(** what merging keeps of it: the extent inside [0, n), and as many source bits as target bits *)
Definition ok4 (n : Z) (q : Z * Z * Z * Z) : Prop := 0 <= q_slo q /\ 0 <= q_lo q /\ q_lo q < q_hi q /\ q_hi q <= n /\ q_shi q - q_slo q = q_hi q - q_lo q.
Lemma qfld_join x slo shi lo hi cshi chi : 0 <= slo -> 0 <= lo -> lo <= hi -> hi <= chi -> shi - slo = hi - lo ->
  Z.lor (qfld x (shi, cshi, hi, chi)) (qfld x (slo, shi, lo, hi)) = qfld x (slo, cshi, lo, chi).
Proof.
  intros H1 H2 H3 H4 H5. unfold qfld. cbn [q_slo q_lo q_hi fst snd]. rewrite (fld_split _ lo hi chi), Z.shiftr_shiftr by lia.
  replace (slo + (hi - lo)) with shi by lia. reflexivity.
Qed.

Lemma merge_slices_run_spec x n : forall fuel desc cslo cshi clo chi, ok4 n (cslo, cshi, clo, chi) -> Forall (ok4 n) desc ->
  absorbs (fun c => ok4 n c /\ q_shi c = cshi) (qpiece x) (cslo, cshi, clo, chi) desc (merge_slices_run cslo cshi clo chi desc fuel).
Proof.
  induction fuel as [|f IH]; intros desc cslo cshi clo chi Oc F; destruct desc as [|[[[slo shi] lo] hi] r]; cbn [merge_slices_run];
    try apply absorbs_none, (conj Oc eq_refl).
  destruct (Z.eqb_spec hi clo) as [->|_]; [|apply absorbs_none, (conj Oc eq_refl)].
  destruct (Z.eqb_spec shi cslo) as [->|_]; [|apply absorbs_none, (conj Oc eq_refl)]. cbn [andb].
  inversion F as [|? ? (A1 & A2 & A3 & A4 & A5) Fr]; subst. destruct Oc as (B1 & B2 & B3 & B4 & B5). cbn [q_slo q_shi q_lo q_hi fst snd] in *.
  apply (absorbs_more _ _ _ _ (slo, cshi, lo, chi)).
  - unfold qpiece. cbn [q_lo q_hi fst snd]. rewrite <- (qfld_join x slo cslo lo clo cshi chi) by lia. apply merged_join; lia.
  - apply IH; [unfold ok4; cbn [q_slo q_shi q_lo q_hi fst snd]; lia | exact Fr].
Qed.

Lemma zdict_set_fresh {A} (d : list (Z * A)) k v : ~ In k (map fst d) -> zdict_set d k v = d ++ [(k, v)].
Proof.
  induction d as [|[k' v'] r IH]; intros N; [reflexivity|]. simpl. destruct (Z.eqb_spec k' k) as [Q|Q]; [exfalso; apply N; left; exact Q|].
  rewrite IH; [reflexivity|]. intros I. apply N. right. exact I.
Qed.
Definition groups_flat (d : list (expr * list slot)) : list slot := List.concat (map snd d).
Lemma edict_append_flat d k a : Permutation (groups_flat (edict_append d k a)) (a :: groups_flat d).
Proof.
  unfold groups_flat. induction d as [|[k' vs] r IH]; simpl; [apply Permutation_refl|].
  destruct (expr_eqb k' k); simpl.
  - rewrite <- app_assoc. simpl. apply Permutation_sym, Permutation_middle.
  - rewrite IH. symmetry. apply Permutation_middle.
Qed.
(** every member of a group is a slice whose source is == the group's key *)
Definition in_group (src : expr) (a : slot) : Prop := exists own slo shi, slot_e a = ESlice own slo shi /\ expr_eqb src own = true.
Definition group_ok (g : expr * list slot) : Prop := Forall (in_group (fst g)) (snd g).
Lemma edict_append_ok d src slo shi (a : slot) : slot_e a = ESlice src slo shi -> Forall group_ok d -> Forall group_ok (edict_append d src a).
Proof.
  intros Ea. induction d as [|[k' vs] r IH]; intros F; simpl.
  - constructor; [|constructor]. unfold group_ok. cbn [fst snd]. constructor; [|constructor]. exists src, slo, shi. split; [exact Ea | apply eqb_refl].
  - inversion F as [|? ? G Fr]; subst. destruct (expr_eqb k' src) eqn:Q.
    + constructor; [|exact Fr]. unfold group_ok in *. cbn [fst snd] in *. apply Forall_app. split; [exact G|]. constructor; [|constructor].
      exists src, slo, shi. split; [exact Ea | exact Q].
    + constructor; [exact G | apply IH; exact Fr].
Qed.

Lemma perm_snoc_mid {A} (l1 l2 l : list A) x : Permutation (l1 ++ l2) l -> Permutation (l1 ++ x :: l2) (l ++ [x]).
Proof. intros P. rewrite <- P, <- Permutation_middle, <- Permutation_cons_append. reflexivity. Qed.

(** the highest end of a slot list: the width of a concatenation that starts at 0 (compose_size) *)
Definition maxhi (l : list slot) : Z := fold_left (fun m a => Z.max m (slot_hi a)) l 0.
(** a fold of max (min) is at most (at least) n exactly when its start and every element are: said once, for an operation
    [f] that is the least upper bound in an order [R] *)
Lemma fold_lub {A} (R : Z -> Z -> Prop) f (g : A -> Z) : (forall m x n, R (f m x) n <-> R m n /\ R x n) ->
  forall l m n, R (fold_left (fun m a => f m (g a)) l m) n <-> R m n /\ forall a, In a l -> R (g a) n.
Proof.
  intros Lub. induction l as [|x l IH]; intros m n; simpl.
  - split; [intros H; split; [exact H | intros a []] | intros [H _]; exact H].
  - rewrite IH, Lub. split.
    + intros [[Hm Hx] H]. split; [exact Hm|]. intros a [<-|Ha]; [exact Hx | exact (H a Ha)].
    + intros [Hm H]. split; [split; [exact Hm | apply H; left; reflexivity]|]. intros a Ha. apply H. right. exact Ha.
Qed.
Lemma fold_max_le_iff l m n : fold_left (fun m a => Z.max m (slot_hi a)) l m <= n <-> m <= n /\ forall a, In a l -> slot_hi a <= n.
Proof. apply (fold_lub Z.le), Z.max_lub_iff. Qed.
Lemma fold_min_ge_iff l m n : n <= fold_left (fun m a => Z.min m (slot_lo a)) l m <-> n <= m /\ forall a, In a l -> n <= slot_lo a.
Proof. apply (fold_lub (fun x n => n <= x)). intros a b c. apply Z.min_glb_iff. Qed.
Lemma fold_max_ge l m : m <= fold_left (fun m a => Z.max m (slot_hi a)) l m /\ forall a, In a l -> slot_hi a <= fold_left (fun m a => Z.max m (slot_hi a)) l m.
Proof. apply fold_max_le_iff, Z.le_refl. Qed.
Lemma maxhi_ge l a : In a l -> slot_hi a <= maxhi l.
Proof. apply fold_max_ge. Qed.
Lemma maxhi_le_iff l n : 0 <= n -> maxhi l <= n <-> forall a, In a l -> slot_hi a <= n.
Proof. intros Hn. unfold maxhi. rewrite fold_max_le_iff. split; [intros [_ H]; exact H | intros H; split; [exact Hn | exact H]]. Qed.
Lemma compose_size s0 r : (forall a, In a (s0 :: r) -> 0 <= slot_lo a /\ slot_lo a < slot_hi a) -> (exists a, In a (s0 :: r) /\ slot_lo a = 0) ->
  size (ECompose (s0 :: r)) = maxhi (s0 :: r) /\ 0 < maxhi (s0 :: r).
Proof.
  intros H (a0 & Ha0 & Z0). cbn [size]. unfold maxhi. cbn [fold_left]. destruct (H s0 (or_introl eq_refl)) as [L0 L1].
  rewrite (Z.max_r 0 (slot_hi s0)) by lia.
  assert (Mn : fold_left (fun m a => Z.min m (slot_lo a)) r (slot_lo s0) = 0).
  { apply Z.le_antisymm.
    - destruct (proj1 (fold_min_ge_iff r (slot_lo s0) _) (Z.le_refl _)) as [M1 M2]. destruct Ha0 as [E0|Ha0]; [subst a0; lia | specialize (M2 a0 Ha0); lia].
    - apply fold_min_ge_iff. split; [lia|]. intros a Ha. apply H. right. exact Ha. }
  rewrite Mn. split; [lia|]. pose proof (proj1 (fold_max_ge r (slot_hi s0))). lia.
Qed.

(** Three anonymous parts of Simp.merge_sliceto_slice under names: the step of its classifying fold ([classify]), the masking of a
    constant to the width of its slot ([mask_int]), and the sorting and merging of the slices of each source ([simp_groups]);
    merge_unfold is the tie. *)
Definition int_slot_of (t : bool * Z * Z * Z * Z) : slot := let '(sg, w, v, lo, hi) := t in (EInt sg w v, lo, hi).
Definition classify (acc : list (expr * list slot) * list (Z * slot) * list (Z * (bool * Z * Z * Z * Z))) (a : slot) :=
  let '(sources, non_slice, sources_int) := acc in
  match slot_e a with
  | EInt sg w v => (sources, non_slice, zdict_set sources_int (slot_lo a) (sg, w, v, slot_lo a, slot_hi a))
  | ESlice src s_lo s_hi => (edict_append sources src a, non_slice, sources_int)
  | _ => (sources, zdict_set non_slice (slot_lo a) a, sources_int)
  end.
Definition is_other (a : slot) : Prop := match slot_e a with EInt _ _ _ | ESlice _ _ _ => False | _ => True end.
Definition acc_flat (acc : list (expr * list slot) * list (Z * slot) * list (Z * (bool * Z * Z * Z * Z))) : list slot :=
  let '(sources, non_slice, sources_int) := acc in groups_flat sources ++ map snd non_slice ++ map (fun p => int_slot_of (snd p)) sources_int.
Definition acc_inv (acc : list (expr * list slot) * list (Z * slot) * list (Z * (bool * Z * Z * Z * Z))) (done : list slot) : Prop :=
  let '(sources, non_slice, sources_int) := acc in
  Permutation (acc_flat acc) done /\ Forall group_ok sources /\
  Forall (fun p => fst p = slot_lo (snd p) /\ is_other (snd p)) non_slice /\
  Forall (fun p => fst p = slot_lo (int_slot_of (snd p))) sources_int.
Lemma classify_inv acc done a : acc_inv acc done -> ~ In (slot_lo a) (map slot_lo done) -> acc_inv (classify acc a) (done ++ [a]).
Proof.
  destruct acc as [[sources non_slice] sources_int]. intros (P & G & Fo & Fi) N.
  (* the keys of the two dictionaries are starts of slots already seen, so the start of a is a new key *)
  assert (Fresh : ~ In (slot_lo a) (map fst non_slice ++ map fst sources_int)).
  { intros I. apply N, (Permutation_in _ (Permutation_map slot_lo P)). unfold acc_flat. rewrite !map_app, !map_map.
    rewrite <- (map_ext_Forall _ _ (proj1 (Forall_and_inv _ _ Fo))), <- (map_ext_Forall _ _ Fi). apply in_or_app. right. exact I. }
  unfold classify. destruct a as [[e lo] hi]. unfold slot_e, slot_lo, slot_hi in *. cbn [fst snd] in *.
  assert (Other : is_other (e, lo, hi) -> acc_inv (sources, zdict_set non_slice lo (e, lo, hi), sources_int) (done ++ [(e, lo, hi)])).
  { intros Io. rewrite zdict_set_fresh by (intros I; apply Fresh, in_or_app; left; exact I). unfold acc_inv, acc_flat. split; [|split; [exact G|split; [|exact Fi]]].
    - rewrite map_app, <- app_assoc, app_assoc. apply perm_snoc_mid. rewrite <- app_assoc. exact P.
    - apply Forall_app. split; [exact Fo|]. constructor; [|constructor]. cbn [fst snd]. split; [reflexivity | exact Io]. }
  destruct e as [sg w v| | | | |src slo shi| |]; try (apply Other; exact I).
  - rewrite zdict_set_fresh by (intros I; apply Fresh, in_or_app; right; exact I). unfold acc_inv, acc_flat. split; [|split; [exact G|split; [exact Fo|]]].
    + rewrite map_app. cbn [map snd int_slot_of]. rewrite !app_assoc. apply Permutation_app_tail. rewrite <- !app_assoc. exact P.
    + apply Forall_app. split; [exact Fi|]. constructor; [|constructor]. reflexivity.
  - unfold acc_inv, acc_flat. split; [|split; [|split; [exact Fo | exact Fi]]].
    + rewrite edict_append_flat. apply (perm_snoc_mid []). exact P.
    + apply (edict_append_ok sources src slo shi (ESlice src slo shi, lo, hi)); [reflexivity | exact G].
Qed.
Lemma classify_all args : NoDup (map slot_lo args) -> acc_inv (fold_left classify args ([], [], [])) args.
Proof.
  induction args as [|a done IH] using rev_ind; intros ND; [unfold acc_inv, acc_flat, groups_flat; cbn; repeat split; constructor|].
  rewrite map_app in ND. cbn [map] in ND. apply NoDup_remove in ND as [ND N]. rewrite app_nil_r in ND, N.
  rewrite fold_left_app. apply classify_inv; [exact (IH ND) | exact N].
Qed.

Definition mask_int (t : bool * Z * Z * Z * Z) : Z * (Z * Z * Z) :=
  let '(sg, w, v, lo, hi) := t in
  (lo, (match binop_apply And (cls_of sg w) v (PY (2 ^ (hi - lo) - 1)) with RMI _ v' => v' | _ => v end, lo, hi)).
Fixpoint simp_groups (l : list (expr * list slot)) : res (list (Z * slot)) :=
  match l with
  | [] => Ok []
  | (src, sl) :: r =>
      do sorted_s <- sort_start (map (fun a => (slot_lo a, a)) sl);
      let items := map (fun '(_, a) => match slot_e a with
                                       | ESlice own s_lo s_hi => (own, (s_lo, s_hi, slot_lo a, slot_hi a))
                                       | _ => (src, (0, 0, slot_lo a, slot_hi a)) end) sorted_s in
      let merged := merge_slices (rev items) (List.length items) in
      do tl <- simp_groups r; Ok (merged ++ tl)
  end.
Lemma fold_left_ext {A B} (f g : A -> B -> A) : (forall acc a, f acc a = g acc a) -> forall l acc, fold_left f l acc = fold_left g l acc.
Proof. intros E. induction l as [|a l IH]; intros acc; [reflexivity|]. simpl. rewrite E. apply IH. Qed.
Lemma merge_unfold args : merge_sliceto_slice args =
  let '(sources, non_slice, sources_int) := fold_left classify args ([], [], []) in
  let max_size := maxhi args in
  do sorted_i <- sort_start (map (fun p => mask_int (snd p)) sources_int);
  do fin_ints <- merge_ints max_size (rev (map snd sorted_i)) (List.length sorted_i);
  do simp_sources <- simp_groups sources;
  do sorted <- sort_start (simp_sources ++ fin_ints ++ non_slice);
  Ok (map snd sorted).
Proof.
  unfold merge_sliceto_slice.
  match goal with |- context [fold_left ?f args ([], [], [])] => rewrite (fold_left_ext f classify) by (intros [[? ?] ?] ?; reflexivity) end.
  destruct (fold_left classify args ([], [], [])) as [[sources non_slice] sources_int].
  rewrite (map_ext _ (fun p => mask_int (snd p))) by (intros [k [[[[sg w] v] lo] hi]]; reflexivity).
  rewrite (map_ext (fun '(i, v) => (i, v)) (fun p : Z * slot => p)), map_id by (intros [i v]; reflexivity). reflexivity.
Qed.

Definition in_piece_ok (n : Z) (a : slot) : Prop :=
  0 <= slot_lo a /\ slot_lo a < slot_hi a /\ slot_hi a <= n /\
  match slot_e a with
  | EInt sg w v => sg = false /\ slot_hi a - slot_lo a <= w /\ 0 <= v < 2 ^ w
  | ESlice src slo shi => 0 <= slo /\ shi - slo = slot_hi a - slot_lo a
  | _ => True
  end.

Lemma mask_value w v k : 0 <= k -> k <= w -> 0 <= v < 2 ^ w ->
  match binop_apply And (cls_of false w) v (PY (2 ^ k - 1)) with RMI _ v' => v' | _ => v end = wrap k v.
Proof.
  intros Hk Hw Hv. unfold binop_apply, exact, cls_of, norm, limit. cbn [c_sg c_w].
  rewrite land_mask by lia.
  apply (wrap_small_le w k); [|exact Hw]. apply wrap_range. lia.
Qed.

Section Merge.
  Variable rho : string -> Z.
  Variable mu : Z -> Z.
  Variable iota : string -> list Z -> Z.
  Notation ev := (eval rho mu iota).
  Notation VV := (V rho mu iota).
  Notation item := (expr * (Z * Z * Z * Z))%type.
  Notation keyed := (Forall (fun p : Z * slot => fst p = slot_lo (snd p))).

  Definition spiece (s : slot) : piece := (sval rho mu iota s, slot_lo s, slot_hi s).
  Notation pieces out := (map spiece (map snd out)).
  Lemma V_pieces l : VV l = PV (map spiece l).
  Proof. symmetry. exact (big_map Z.lor 0 spiece t_v l). Qed.
  Lemma occ_pieces l i : occ l i = pocc (map spiece l) i.
  Proof. symmetry. exact (big_map Z.add 0 spiece (fun t => ind (t_lo t) (t_hi t) i) l). Qed.

  Definition int_slot_ok (n : Z) (s : slot) : Prop :=
    exists v, slot_e s = EInt false n v /\ 0 <= v < 2 ^ (slot_hi s - slot_lo s) /\ 0 <= slot_lo s /\ slot_lo s < slot_hi s /\ slot_hi s <= n.

  Lemma merge_ints_spec n : 0 < n -> n <= 64 -> forall fuel desc out, (List.length desc <= fuel)%nat -> Forall (ok3 n) desc ->
    merge_ints n desc fuel = Ok out ->
    keyed out /\ Forall (int_slot_ok n) (map snd out) /\ merged (pieces out) (map tpiece desc).
  Proof.
    intros Hn0 Hn. induction fuel as [|f IH]; intros desc out Len F H; destruct desc as [|[[v lo] hi] r]; cbn [merge_ints] in H;
      try (inversion H; split; [constructor|]; split; [constructor | apply merged_refl]).
    (* left: no fuel for a non-empty list, which Len excludes, and the step *)
    { simpl in Len. lia. }
    inversion F as [|? ? Ft Fr]; subst. destruct (merge_ints_run_spec n Hn (List.length r) r v lo hi Ft Fr) as (ab & E & (B1 & B2 & B3 & B4) & M).
    destruct (merge_ints_run v lo hi r (List.length r)) as [[[v' lo'] hi'] rest]. cbn [t_v t_lo t_hi fst snd] in E, B1, B2, B3, B4, M. subst r.
    unfold mk_int in H. destruct (std_width n); [|discriminate]. cbn [bind] in H.
    destruct (merge_ints n rest f) as [tl| |] eqn:Mt; try discriminate. cbn [bind] in H. inversion H; subst out. clear H.
    apply Forall_app in Fr as [_ Fr]. simpl in Len. rewrite app_length in Len.
    destruct (IH rest tl ltac:(lia) Fr Mt) as (I1 & I2 & I3).
    assert (Wv : wrap n v' = v') by (apply (wrap_small_le n (hi' - lo')); lia).
    rewrite Wv, app_comm_cons, map_app. cbn [map snd]. split; [constructor; [reflexivity | exact I1]|]. split.
    - constructor; [|exact I2]. exists v'. unfold slot_e, slot_lo, slot_hi. cbn [fst snd]. repeat split; lia.
    - apply (merged_app [_]); [|exact I3].
      unfold spiece, sval, slot_e, slot_lo, slot_hi. cbn [fst snd eval]. rewrite Wv. exact M.
  Qed.

  Lemma sval_slice src q n : ok4 n q -> sval rho mu iota (ESlice src (q_slo q) (q_shi q), q_lo q, q_hi q) = qfld (ev src) q.
  Proof.
    intros (A1 & A2 & A3 & A4 & A5). unfold sval, qfld, slot_e, slot_lo, slot_hi. cbn [fst snd eval]. unfold fld. rewrite A5.
    f_equal. unfold wrap. apply Z.mod_mod. apply Z.pow_nonzero; lia.
  Qed.

  Definition item_of (src : expr) (a : slot) : item :=
    match slot_e a with
    | ESlice own s_lo s_hi => (own, (s_lo, s_hi, slot_lo a, slot_hi a))
    | _ => (src, (0, 0, slot_lo a, slot_hi a))
    end.
  (** the item of a slice whose source is == src: the slice read back from it, and the same piece *)
  Lemma item_of_ok n src a : in_group src a -> in_piece_ok n a ->
    slot_e a = ESlice (fst (item_of src a)) (q_slo (snd (item_of src a))) (q_shi (snd (item_of src a))) /\
    ok4 n (snd (item_of src a)) /\ ev (fst (item_of src a)) = ev src /\ qpiece (ev src) (snd (item_of src a)) = spiece a.
  Proof.
    intros (own & slo & shi & Ea & Q) (B1 & B2 & B3 & B4). unfold item_of. rewrite Ea in *. destruct B4 as [B4 B5]. cbn [fst snd q_slo q_shi].
    assert (O : ok4 n (slo, shi, slot_lo a, slot_hi a)) by (unfold ok4; cbn [q_slo q_shi q_lo q_hi fst snd]; lia).
    apply (eval_eqb rho mu iota) in Q. split; [reflexivity|]. split; [exact O|]. split; [symmetry; exact Q|].
    unfold spiece, qpiece. rewrite Q, <- (sval_slice own _ n O). destruct a as [[e lo] hi]. cbn in Ea. subst e. reflexivity.
  Qed.

  (** a merged slice in the result: a slice of the source of one of the argument's slices, ending where that one ends *)
  Definition out_slice_ok (n : Z) (L : list slot) (s : slot) : Prop :=
    exists src slo0 shi a', slot_e s = ESlice src a' shi /\ 0 <= a' /\ shi - a' = slot_hi s - slot_lo s /\
      0 <= slot_lo s /\ slot_lo s < slot_hi s /\ slot_hi s <= n /\ exists a0, In a0 L /\ slot_e a0 = ESlice src slo0 shi.
  Lemma out_slice_mono n L L' s : incl L L' -> out_slice_ok n L s -> out_slice_ok n L' s.
  Proof. intros I (src & slo0 & shi & a' & A1 & A2 & A3 & A4 & A5 & A6 & a0 & Ia & Ea). exists src, slo0, shi, a'. repeat split; try assumption. exists a0. split; [apply I; exact Ia | exact Ea]. Qed.

  Lemma merge_slices_spec n src : forall fuel l, (List.length l <= fuel)%nat -> Forall (fun a => in_group src a /\ in_piece_ok n a) l ->
    let out := merge_slices (map (item_of src) l) fuel in
    keyed out /\ Forall (out_slice_ok n l) (map snd out) /\ merged (pieces out) (map spiece l).
  Proof.
    induction fuel as [|f IH]; intros l Len F; destruct l as [|a0 r]; cbn [map merge_slices];
      try (split; [constructor|]; split; [constructor | apply merged_refl]).
    (* left: no fuel for a non-empty list, which Len excludes, and the step *)
    { simpl in Len. lia. }
    apply Forall_cons_iff in F as [[G0 P0] Fr]. destruct (item_of_ok n src a0 G0 P0) as (E0 & O0 & V0 & Pc0).
    destruct (item_of src a0) as [own [[[slo shi] lo] hi]]. cbn [fst snd q_slo q_shi] in E0, O0, V0, Pc0.
    assert (Fq : Forall (ok4 n) (map snd (map (item_of src) r))).
    { rewrite map_map. apply Forall_map. eapply Forall_impl; [|exact Fr]. intros s [Gs Ps]. apply (item_of_ok n src s Gs Ps). }
    destruct (merge_slices_run_spec (ev src) n (List.length (map (item_of src) r)) _ slo shi lo hi O0 Fq) as (ab & E & (O' & Hb) & M).
    destruct (merge_slices_run slo shi lo hi _ _) as [[[[a b] lo'] hi'] rest]. cbn [q_shi fst snd] in E, O', Hb, M. subst b.
    (* the slots of r are the absorbed ones and then those the recursion goes on with *)
    rewrite map_map in E. apply map_eq_app in E as (r1 & r2 & -> & <- & <-).
    rewrite !map_length, app_length, Nat.add_sub, skipn_map, skipn_app, skipn_all, Nat.sub_diag. cbn [skipn app].
    apply Forall_app in Fr as [F1 F2]. simpl in Len. rewrite app_length in Len.
    destruct (IH r2 ltac:(lia) F2) as (I1 & I2 & I3).
    cbn [map snd]. split; [constructor; [reflexivity | exact I1]|]. split.
    - constructor.
      + exists own, slo, shi, a. destruct O' as (B1 & B2 & B3 & B4 & B5). unfold slot_e, slot_lo, slot_hi. cbn [q_slo q_shi q_lo q_hi fst snd] in *.
        repeat split; try lia. exists a0. split; [left; reflexivity | exact E0].
      + eapply Forall_impl; [|exact I2]. intros s. apply out_slice_mono. intros y Hy. right. apply in_or_app. right. exact Hy.
    - rewrite map_app, app_comm_cons. apply (merged_app [_]); [|exact I3].
      pose proof (sval_slice own (a, shi, lo', hi') n O') as Sv. cbn [q_slo q_shi q_lo q_hi fst snd] in Sv.
      unfold spiece at 1. unfold slot_lo, slot_hi. cbn [fst snd]. rewrite Sv, V0. cbn [map] in M. rewrite Pc0, map_map in M.
      rewrite (map_ext_in spiece (fun s => qpiece (ev src) (snd (item_of src s)))); [exact M|].
      intros s Hs. rewrite Forall_forall in F1. destruct (F1 s Hs) as [Gs Ps]. symmetry. apply (item_of_ok n src s Gs Ps).
  Qed.

  Lemma group_spec n src sl sorted_s : group_ok (src, sl) -> Forall (in_piece_ok n) sl ->
    sort_start (map (fun a => (slot_lo a, a)) sl) = Ok sorted_s ->
    let items := map (fun p => item_of src (snd p)) sorted_s in
    let out := merge_slices (rev items) (List.length items) in
    keyed out /\ Forall (out_slice_ok n sl) (map snd out) /\ merged (pieces out) (map spiece sl).
  Proof.
    intros G F Hs items out. unfold group_ok in G. cbn [fst snd] in G.
    (* the items are those of the group's slots, taken by descending start *)
    set (l := rev (map snd sorted_s)).
    assert (P : Permutation sl l).
    { unfold l. rewrite <- Permutation_rev. pose proof (Permutation_map snd (sort_start_perm _ _ Hs)) as P. rewrite map_map in P. cbn [snd] in P. rewrite map_id in P. exact P. }
    assert (E : rev items = map (item_of src) l) by (unfold items, l; rewrite map_rev, map_map; reflexivity).
    assert (El : List.length items = List.length l) by (unfold items, l; rewrite rev_length, !map_length; reflexivity).
    unfold out. rewrite E, El.
    destruct (merge_slices_spec n src _ l (le_n _) (Permutation_Forall P (Forall_and G F))) as (I1 & I2 & I3).
    split; [exact I1|]. split.
    - eapply Forall_impl; [|exact I2]. intros s. apply out_slice_mono. intros y Hy. apply (Permutation_in _ (Permutation_sym P) Hy).
    - exact (merged_perm _ _ _ _ (Permutation_refl _) (Permutation_map _ (Permutation_sym P)) I3).
  Qed.

  Lemma groups_spec n : forall S out, Forall group_ok S -> Forall (in_piece_ok n) (groups_flat S) -> simp_groups S = Ok out ->
    keyed out /\ Forall (out_slice_ok n (groups_flat S)) (map snd out) /\ merged (pieces out) (map spiece (groups_flat S)).
  Proof.
    induction S as [|[src sl] r IH]; intros out G F H; cbn [simp_groups] in H.
    - inversion H. split; [constructor|]. split; [constructor | apply merged_refl].
    - destruct (sort_start (map (fun a => (slot_lo a, a)) sl)) as [sorted_s| |] eqn:Hs; try discriminate. cbn [bind] in H.
      destruct (simp_groups r) as [tl| |] eqn:Ht; try discriminate. cbn [bind] in H. inversion H; subst out. clear H.
      apply Forall_cons_iff in G as [G1 Gr]. unfold groups_flat in *. cbn [map snd List.concat] in *. fold (groups_flat r) in *.
      apply Forall_app in F as [F1 Fr].
      rewrite (map_ext _ (fun p => item_of src (snd p))) by (intros [k a]; reflexivity).
      destruct (group_spec n src sl sorted_s G1 F1 Hs) as (A1 & A2 & A3). destruct (IH tl Gr Fr eq_refl) as (B1 & B2 & B3).
      rewrite !map_app. split; [apply Forall_app; split; assumption|]. split; [|apply merged_app; assumption].
      apply Forall_app. split.
      + eapply Forall_impl; [|exact A2]. intros s0. apply out_slice_mono. intros y Hy. apply in_or_app. left. exact Hy.
      + eapply Forall_impl; [|exact B2]. intros s0. apply out_slice_mono. intros y Hy. apply in_or_app. right. exact Hy.
  Qed.

  Lemma mask_int_piece n t : in_piece_ok n (int_slot_of t) -> ok3 n (snd (mask_int t)) /\ tpiece (snd (mask_int t)) = spiece (int_slot_of t).
  Proof.
    destruct t as [[[[sg w] v] lo] hi]. intros (B1 & B2 & B3 & B4). unfold int_slot_of, slot_e, slot_lo, slot_hi in B1, B2, B3, B4. cbn [fst snd] in B1, B2, B3, B4.
    destruct B4 as (-> & B5 & B6). unfold mask_int. cbn [snd]. rewrite (mask_value w v (hi - lo)) by lia.
    pose proof (wrap_range (hi - lo) v ltac:(lia)) as R. split.
    - unfold ok3. cbn [t_v t_lo t_hi fst snd]. lia.
    - unfold tpiece, tfld, spiece, sval, int_slot_of, slot_e, slot_lo, slot_hi, fld. cbn [t_v t_lo t_hi fst snd eval].
      rewrite wrap_idem, (wrap_small w v) by lia. reflexivity.
  Qed.

  Definition out_ok (n : Z) (args : list slot) (s : slot) : Prop :=
    (In s args /\ is_other s) \/ int_slot_ok n s \/ out_slice_ok n args s.

  Theorem merge_spec args out n : n = maxhi args -> 0 < n -> n <= 64 ->
    NoDup (map slot_lo args) -> Forall (in_piece_ok n) args -> merge_sliceto_slice args = Ok out ->
    VV out = VV args /\ NoDup (map slot_lo out) /\ Forall (out_ok n args) out /\
    Forall (fun a => exists s, In s out /\ slot_lo s <= slot_lo a /\ slot_hi a <= slot_hi s) args /\
    forall i, occ out i = occ args i.
  Proof.
    intros En Hn0 Hn ND F H. rewrite merge_unfold in H. rewrite <- En in H.
    pose proof (classify_all args ND) as Inv.
    destruct (fold_left classify args ([], [], [])) as [[S NS] IS]. destruct Inv as (PA & G & Fo & _). unfold acc_flat in PA.
    set (ints := map (fun p => int_slot_of (snd p)) IS) in *.
    pose proof (Permutation_Forall (Permutation_sym PA) F) as F'. apply Forall_app in F' as [FS F']. apply Forall_app in F' as [_ FI].
    destruct (sort_start (map (fun p => mask_int (snd p)) IS)) as [sorted_i| |] eqn:Hsi; try discriminate. cbn [bind] in H.
    destruct (merge_ints n (rev (map snd sorted_i)) (List.length sorted_i)) as [fin| |] eqn:Hmi; try discriminate. cbn [bind] in H.
    destruct (simp_groups S) as [simp| |] eqn:Hg; try discriminate. cbn [bind] in H.
    destruct (sort_start (simp ++ fin ++ NS)) as [sorted| |] eqn:Hso; try discriminate. cbn [bind] in H. inversion H; subst out. clear H.
    (* the masked constants, in the order in which they are merged, are the pieces of the constant slots *)
    assert (Pd : Permutation (map (fun p => snd (mask_int (snd p))) IS) (rev (map snd sorted_i))).
    { eapply Permutation_trans; [|apply Permutation_rev]. rewrite <- (map_map (fun p => mask_int (snd p)) snd). apply Permutation_map, (sort_start_perm _ _ Hsi). }
    assert (Ip : Forall (fun p => ok3 n (snd (mask_int (snd p))) /\ tpiece (snd (mask_int (snd p))) = spiece (int_slot_of (snd p))) IS).
    { unfold ints in FI. rewrite Forall_map in FI. eapply Forall_impl; [|exact FI]. intros p. apply mask_int_piece. }
    apply Forall_and_inv in Ip as [Io Ie].
    assert (Fd : Forall (ok3 n) (rev (map snd sorted_i))) by apply (Permutation_Forall Pd), Forall_map, Io.
    assert (Ei : map tpiece (map (fun p => snd (mask_int (snd p))) IS) = map spiece ints) by (unfold ints; rewrite !map_map; apply map_ext_Forall, Ie).
    destruct (merge_ints_spec n Hn0 Hn (List.length sorted_i) (rev (map snd sorted_i)) fin ltac:(rewrite rev_length, map_length; lia) Fd Hmi) as (J1 & J2 & J3).
    destruct (groups_spec n S simp G FS Hg) as (K1 & K2 & K3).
    pose proof (sort_start_perm _ _ Hso) as Ps.
    assert (Keys : keyed sorted).
    { apply (Permutation_Forall Ps). apply Forall_app. split; [exact K1|]. apply Forall_app. split; [exact J1|]. eapply Forall_impl; [|exact Fo]. intros p Hp. apply Hp. }
    assert (Mg : merged (pieces sorted) (map spiece args)).
    { apply (merged_perm (pieces (simp ++ fin ++ NS)) _ (map spiece (groups_flat S ++ ints ++ map snd NS))).
      - apply Permutation_map, Permutation_map, Ps.
      - apply Permutation_map. eapply Permutation_trans; [|exact PA]. apply Permutation_app_head, Permutation_app_comm.
      - rewrite !map_app. apply merged_app; [exact K3|]. apply merged_app; [|apply merged_refl].
        rewrite <- Ei. exact (merged_perm _ _ _ _ (Permutation_refl _) (Permutation_map _ (Permutation_sym Pd)) J3). }
    destruct Mg as (Mv & Mo & Mc). split; [rewrite !V_pieces; exact Mv|]. split; [|split; [|split]].
    - rewrite map_map, <- (map_ext_Forall _ _ Keys). apply asc_nodup, (sort_start_asc _ _ Hso).
    - apply Forall_forall. intros s Hs. apply in_map_iff in Hs as (p & <- & Hp). apply (Permutation_in _ (Permutation_sym Ps)) in Hp.
      assert (InclS : incl (groups_flat S) args) by (intros y Hy; apply (Permutation_in _ PA); apply in_or_app; left; exact Hy).
      apply in_app_or in Hp as [Hp|Hp]; [|apply in_app_or in Hp as [Hp|Hp]].
      + right. right. rewrite Forall_forall in K2. apply (out_slice_mono n _ _ _ InclS). apply K2. apply in_map. exact Hp.
      + right. left. rewrite Forall_forall in J2. apply J2. apply in_map. exact Hp.
      + left. rewrite Forall_forall in Fo. split; [|apply (Fo p Hp)]. apply (Permutation_in _ PA). apply in_or_app. right. apply in_or_app. left. apply in_map. exact Hp.
    - rewrite Forall_map in Mc. eapply Forall_impl; [|exact Mc]. intros a (c & Ic & I). apply in_map_iff in Ic as (s & <- & Is). exists s. split; [exact Is | exact I].
    - intros i. rewrite !occ_pieces. apply Mo.
  Qed.
End Merge.

Section Range.
  Variable rho : string -> Z.
  Variable mu : Z -> Z.
  Variable iota : string -> list Z -> Z.
  Lemma V_range n l : 0 <= n -> (forall a, In a l -> 0 <= slot_lo a /\ slot_lo a <= slot_hi a /\ slot_hi a <= n) -> 0 <= V rho mu iota l < 2 ^ n.
  Proof.
    intros Hn. induction l as [|s l IH]; intros H; [simpl; split; [lia | apply Z.pow_pos_nonneg; lia]|].
    cbn [V fold_right]. fold (V rho mu iota l). destruct (H s (or_introl eq_refl)) as (A1 & A2 & A3).
    apply lor_lt_pow2; [lia | | apply IH; intros a Ha; apply H; right; exact Ha].
    apply fld_range; lia.
  Qed.
End Range.

(** [pdisj], pairwise disjointness as a boolean, says that no bit position is covered twice (pdisj_occ, occ_pdisj) *)
Definition disj2 (a b : slot) : bool := (slot_hi a <=? slot_lo b) || (slot_hi b <=? slot_lo a).
Fixpoint pdisj (l : list slot) : bool := match l with [] => true | s :: r => forallb (disj2 s) r && pdisj r end.
Lemma occ_cover l i : 1 <= occ l i <-> exists s, In s l /\ slot_lo s <= i < slot_hi s.
Proof.
  split.
  - induction l as [|s r IH]; simpl; [lia|]. intros H. unfold ind in H. destruct ((slot_lo s <=? i) && (i <? slot_hi s)) eqn:C.
    + exists s. split; [left; reflexivity|]. apply andb_true_iff in C as [C1 C2]. apply Z.leb_le in C1. apply Z.ltb_lt in C2. lia.
    + destruct (IH H) as (t & It & Ct). exists t. split; [right; exact It | exact Ct].
  - intros (s & Is & Cs). apply in_split in Is as (l1 & l2 & ->). rewrite occ_app. simpl. pose proof (occ_nonneg l1 i). pose proof (occ_nonneg l2 i). unfold ind. cmp_cases.
Qed.
Lemma pdisj_occ l : pdisj l = true -> forall i, occ l i <= 1.
Proof.
  induction l as [|s r IH]; intros H i; simpl; [lia|]. simpl in H. apply andb_true_iff in H as [D P]. specialize (IH P i).
  destruct (Z_lt_le_dec (occ r i) 1) as [L|L]; [pose proof (ind_range (slot_lo s) (slot_hi s) i); lia|].
  (* a slot of r covers i and is disjoint from s, so s does not cover i *)
  apply occ_cover in L as (t & It & Ct). rewrite forallb_forall in D. specialize (D t It). unfold disj2 in D.
  apply orb_true_iff in D as [Q|Q]; apply Z.leb_le in Q; unfold ind; cmp_cases.
Qed.
Lemma occ_pdisj l : (forall a, In a l -> slot_lo a < slot_hi a) -> (forall i, occ l i <= 1) -> pdisj l = true.
Proof.
  induction l as [|s r IH]; intros Ne H; [reflexivity|]. simpl. apply andb_true_iff. split.
  - apply forallb_forall. intros t Ht. unfold disj2. destruct (Z.leb_spec (slot_hi s) (slot_lo t)) as [A|A]; [reflexivity|].
    destruct (Z.leb_spec (slot_hi t) (slot_lo s)) as [B|B]; [reflexivity|]. exfalso.
    pose proof (Ne s (or_introl eq_refl)) as Ns. pose proof (Ne t (or_intror Ht)) as Nt.
    set (m := Z.max (slot_lo s) (slot_lo t)). specialize (H m). simpl in H.
    assert (I1 : ind (slot_lo s) (slot_hi s) m = 1) by (unfold ind, m; cmp_cases).
    assert (I2 : 1 <= occ r m) by (apply occ_cover; exists t; split; [exact Ht | lia]).
    lia.
  - apply IH; [intros a Ha; apply Ne; right; exact Ha|]. intros i. specialize (H i). simpl in H. pose proof (ind_range (slot_lo s) (slot_hi s) i). lia.
Qed.

(** Lists of non-empty slots with the same occupancy cover the same positions, so they end at the same place
    ([maxhi_occ_le]).  Where no position is covered twice the starts are distinct. *)
Lemma occ_nodup l : (forall a, In a l -> slot_lo a < slot_hi a) -> (forall i, occ l i <= 1) -> NoDup (map slot_lo l).
Proof.
  intros Ne H. apply occ_pdisj in H; [|exact Ne]. induction l as [|s r IH]; simpl; constructor.
  - (* a slot of r with the start of s would overlap s *)
    intros I. apply in_map_iff in I as (t & E & It). simpl in H. apply andb_true_iff in H as [D _]. rewrite forallb_forall in D. specialize (D t It).
    pose proof (Ne s (or_introl eq_refl)). pose proof (Ne t (or_intror It)). unfold disj2 in D. revert D. cmp_cases.
  - simpl in H. apply andb_true_iff in H as [_ P]. apply IH; [intros a Ha; apply Ne; right; exact Ha | exact P].
Qed.
Lemma maxhi_occ_le l l' : (forall a, In a l' -> slot_lo a < slot_hi a) -> (forall i, occ l' i <= occ l i) -> maxhi l' <= maxhi l.
Proof.
  (* the last position of a slot of l' is covered in l too, by a slot that ends no earlier *)
  intros Ne H. apply maxhi_le_iff; [apply fold_max_ge|]. intros a Ia. specialize (H (slot_hi a - 1)). pose proof (Ne a Ia).
  destruct (proj1 (occ_cover l (slot_hi a - 1))) as (b & Ib & Cb).
  - assert (1 <= occ l' (slot_hi a - 1)) by (apply occ_cover; exists a; split; [exact Ia | lia]). lia.
  - pose proof (maxhi_ge l b Ib). lia.
Qed.

(** Non-overlap: where no position is covered twice, bit j of a concatenation is bit j of the one slot that covers it.  The slice
    of a concatenation (SimpProofs) and the EFLAGS image (SemSysProofs) are read through this. *)
Section Unique.
  Variable rho : string -> Z.
  Variable mu : Z -> Z.
  Variable iota : string -> list Z -> Z.
  Lemma V_bit_zero l j : 0 <= j -> (forall a, In a l -> 0 <= slot_lo a /\ slot_lo a <= slot_hi a) -> occ l j = 0 -> Z.testbit (V rho mu iota l) j = false.
  Proof.
    intros Hj. induction l as [|t r IH]; intros G H; [apply Z.bits_0|]. cbn [V fold_right]. fold (V rho mu iota r). simpl in H.
    pose proof (ind_range (slot_lo t) (slot_hi t) j) as R1. pose proof (occ_nonneg r j) as R2.
    rewrite Z.lor_spec, IH by (try (intros a Ha; apply G; right; exact Ha); lia). rewrite orb_false_r. unfold sval.
    destruct (G t (or_introl eq_refl)) as [G1 G2]. rewrite fld_bits by lia. unfold ind in H.
    destruct ((slot_lo t <=? j) && (j <? slot_hi t)); [lia | reflexivity].
  Qed.
  Lemma V_bit_unique l s j : 0 <= j -> (forall a, In a l -> 0 <= slot_lo a /\ slot_lo a <= slot_hi a) -> In s l -> (forall i, occ l i <= 1) -> slot_lo s <= j < slot_hi s ->
    Z.testbit (V rho mu iota l) j = Z.testbit (eval rho mu iota (slot_e s)) (j - slot_lo s).
  Proof.
    (* s occupies j, so the slots before and after it do not, and contribute no bit there *)
    intros Hj G Hs H Rj. pose proof (G s Hs) as Gs. apply in_split in Hs as (l1 & l2 & ->). specialize (H j). rewrite occ_app in H. cbn [occ fold_right] in H. fold (occ l2 j) in H.
    assert (Is : ind (slot_lo s) (slot_hi s) j = 1) by (unfold ind; cmp_cases).
    pose proof (occ_nonneg l1 j). pose proof (occ_nonneg l2 j).
    assert (B1 : Z.testbit (V rho mu iota l1) j = false) by (apply V_bit_zero; [exact Hj | intros a Ha; apply G, in_or_app; left; exact Ha | lia]).
    assert (B2 : Z.testbit (V rho mu iota l2) j = false) by (apply V_bit_zero; [exact Hj | intros a Ha; apply G, in_or_app; right; right; exact Ha | lia]).
    rewrite V_app, Z.lor_spec, B1. cbn [V fold_right orb]. fold (V rho mu iota l2). rewrite Z.lor_spec, B2, orb_false_r.
    unfold sval, fld. apply testbit_slot_in; lia.
  Qed.
End Unique.