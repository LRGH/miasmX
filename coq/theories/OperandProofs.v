(** OperandProofs.v — spelling-independence facts of the operand algebra (C19). *)
From Coq Require Import ZArith List Bool Lia.
From Mx Require Import AsmProofs Operand.
Import ListNotations.
Open Scope Z_scope.

(** numbers with the same value modulo 2^32 are the same operand: 16 / 0x10, -1 / 0xFFFFFFFF *)
Theorem norm32_congr n m : n mod 2 ^ 32 = m mod 2 ^ 32 -> norm32 n = norm32 m.
Proof. unfold norm32. intros ->. reflexivity. Qed.
Lemma norm32_sgnw n : norm32 n = Asm.sgnw 32 n.
Proof. reflexivity. Qed.
Theorem norm32_value n : (norm32 n) mod 2 ^ 32 = n mod 2 ^ 32 /\ - 2 ^ 31 <= norm32 n < 2 ^ 31.
Proof. rewrite norm32_sgnw. exact (conj (sgnw_congr 32 n eq_refl) (sgnw_range 32 n eq_refl)). Qed.

Lemma lookup_remove d k k' : lookup (remove d k) k' = if k =? k' then None else lookup d k'.
Proof.
  induction d as [|[k0 v0] d IH]; simpl; [destruct (k =? k'); reflexivity|].
  destruct (Z.eqb_spec k0 k) as [->|N].
  - rewrite IH. destruct (k =? k'); reflexivity.
  - simpl. rewrite IH. destruct (Z.eqb_spec k0 k') as [->|_]; [|reflexivity]. destruct (Z.eqb_spec k k'); congruence.
Qed.
Lemma lookup_set d k v k' : lookup (set d k v) k' = if k =? k' then Some v else lookup d k'.
Proof.
  induction d as [|[k0 v0] d IH]; simpl; [reflexivity|].
  destruct (Z.eqb_spec k0 k) as [->|N].
  - simpl. destruct (k =? k'); reflexivity.
  - simpl. rewrite IH. destruct (Z.eqb_spec k0 k') as [->|_]; [|reflexivity]. destruct (Z.eqb_spec k k'); congruence.
Qed.
Lemma coef_upd d k v k' : coef (upd d k v) k' = if k =? k' then v else coef d k'.
Proof.
  unfold coef, upd. destruct (v =? 0) eqn:E.
  - rewrite lookup_remove. apply Z.eqb_eq in E. subst v. destruct (k =? k'); reflexivity.
  - rewrite lookup_set. destruct (k =? k'); reflexivity.
Qed.

(** total contribution of the entries of b with key k *)
Fixpoint total (b : odict) (k : Z) : Z := match b with [] => 0 | (k', v) :: r => (if k' =? k then v else 0) + total r k end.
Lemma total_coef b k : NoDup (map fst b) -> total b k = coef b k.
Proof.
  induction b as [|[k0 v0] b IH]; intros ND; [reflexivity|]. inversion ND as [|? ? Nin ND']; subst.
  unfold coef in *. simpl. destruct (k0 =? k) eqn:E.
  - apply Z.eqb_eq in E. subst k0. assert (T : total b k = 0).
    { clear IH ND ND'. induction b as [|[k1 v1] b IHb]; [reflexivity|]. simpl in *. destruct (k1 =? k) eqn:E1.
      - apply Z.eqb_eq in E1. subst. exfalso. apply Nin. left. reflexivity.
      - rewrite IHb; [lia | intros H; apply Nin; right; assumption]. }
    lia.
  - rewrite IH by assumption. lia.
Qed.

(** adding (s = 1) or subtracting (s = -1) the entries of b one by one *)
Lemma coef_fold s (op : Z -> Z -> Z) : (forall x v, op x v = x + s * v) ->
  forall b a k, coef (fold_left (fun tmp kv => upd tmp (fst kv) (op (coef tmp (fst kv)) (snd kv))) b a) k = coef a k + s * total b k.
Proof.
  intros Hop. induction b as [|[k0 v0] b IH]; intros a k; simpl; [lia|].
  rewrite IH, coef_upd, Hop. destruct (Z.eqb_spec k0 k) as [->|_]; lia.
Qed.

(** the coefficient of every key (register, immediate, scale) of a sum / difference / multiple is the sum / difference / multiple *)
Theorem dict_add_coef a b k : NoDup (map fst b) -> coef (dict_add a b) k = coef a k + coef b k.
Proof. intros ND. unfold dict_add. rewrite (coef_fold 1 Z.add), total_coef by (assumption || (intros; lia)). lia. Qed.
Theorem dict_sub_coef a b k : NoDup (map fst b) -> coef (dict_sub a b) k = coef a k - coef b k.
Proof. intros ND. unfold dict_sub. rewrite (coef_fold (-1) Z.sub), total_coef by (assumption || (intros; lia)). lia. Qed.
Theorem dict_scale_coef c b k : coef (dict_scale c b) k = c * coef b k.
Proof.
  unfold coef, dict_scale. induction b as [|[k0 v0] b IH]; simpl; [lia|]. destruct (k0 =? k); [reflexivity | exact IH].
Qed.
(** hence the order of the terms of a memory operand does not change what it denotes: [eax+4] / [4+eax], [ebx+esi*2] / [esi*2+ebx] *)
Corollary dict_add_comm a b k : NoDup (map fst a) -> NoDup (map fst b) -> coef (dict_add a b) k = coef (dict_add b a) k.
Proof. intros Na Nb. rewrite !dict_add_coef by assumption. lia. Qed.
Corollary dict_add_assoc a b c k : NoDup (map fst b) -> NoDup (map fst c) -> NoDup (map fst (dict_add b c)) ->
  coef (dict_add (dict_add a b) c) k = coef (dict_add a (dict_add b c)) k.
Proof. intros Nb Nc Nbc. rewrite !dict_add_coef by assumption. lia. Qed.
