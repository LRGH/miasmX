(** ReadPaths.v — two of the read paths of eval_ExprMem in the model EvalAbs.eval_expr (C07): a read that hits a stored cell at its own
    address and width returns the stored value; a read of a NARROWER width at the address of a stored cell returns an expression that
    denotes, in every concrete state, the low bits of the stored value (through the soundness theorem of the simplifier, C05). *)
From Coq Require Import ZArith List Bool String Lia.
From Mx Require Import Expr Simp SimpProofs EvalAbs.
Import ListNotations.
Open Scope Z_scope.

Section Reads.
  Variable ac : bool.
  Variable IdQ : string -> Z -> bool -> bool -> bool.
  Variables (f : nat) (s : pool).
  Definition evs (x : expr) : res expr + xerr := (dox y <- eval_expr f s x; lift (simpF y)).
  Variables (addr : expr) (w : Z) (sg : option expr) (addr1 : expr) (w1 : Z) (sg1 : option expr) (a_val : expr).
  Hypothesis Hvisit : visitM simpF (EMem addr w sg) = Ok (EMem addr1 w1 sg1).      (* the operand after the simplifier's pass *)
  Hypothesis Haddr : evs addr1 = okx a_val.                                        (* its address in the current state *)

  Theorem read_exact_hit v : pool_get_mem s a_val w1 = Some v -> eval_expr (S f) s (EMem addr w sg) = okx v.
  Proof.
    intros Hit. cbn [eval_expr]. change (is_term (EMem addr w sg)) with false. cbv iota. rewrite Hvisit. cbn [lift bindx].
    fold (evs addr1). rewrite Haddr. cbn [bindx okx]. rewrite Hit. reflexivity.
  Qed.

  Theorem read_low_part cell cellv r : pool_get_mem s a_val w1 = None -> adict_get (pool_mem s) a_val = Some (cell, cellv) -> (w1 >? size cell) = false ->
    wf ac IdQ cellv = true -> 0 < w1 <= size cellv ->
    eval_expr (S f) s (EMem addr w sg) = okx r ->
    wf ac IdQ r = true /\ size r = w1 /\ forall rho mu iota, eval rho mu iota r = (eval rho mu iota cellv) mod 2 ^ w1.
  Proof.
    intros Miss Cell Narrow Wv Hw H. cbn [eval_expr] in H. change (is_term (EMem addr w sg)) with false in H. cbv iota in H. rewrite Hvisit in H. cbn [lift bindx] in H.
    fold (evs addr1) in H. rewrite Haddr in H. cbn [bindx okx] in H. rewrite Miss, Cell, Narrow in H. unfold lift, okx in H.
    assert (Hs : simpF (ESlice cellv 0 w1) = Ok r) by (destruct (simpF (ESlice cellv 0 w1)); congruence).
    assert (Ws : wf ac IdQ (ESlice cellv 0 w1) = true) by (apply wf_slice_iff; repeat split; [exact Wv | lia ..]).
    destruct (simp_sound_frag1 ac IdQ _ _ _ Ws Hs) as (A & B & C). split; [exact A|]. split; [rewrite B; cbn [size]; lia|].
    intros rho mu iota. rewrite C. cbn [eval]. rewrite Z.shiftr_0_r. replace (w1 - 0) with w1 by lia. reflexivity.
  Qed.
End Reads.
