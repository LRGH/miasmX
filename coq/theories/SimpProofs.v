(** SimpProofs.v — soundness of the simplifier model Simp.v (C05): on well-formed trees every rewriting rule, the traversal and
    the fixpoint loop preserve well-formedness, width and value. *)
From Coq Require Import ZArith List Bool String Lia Permutation.
From Mx Require Import ModInt Expr ExprProofs Bits Simp SliceLemmas RotLemmas ComposeProofs.
Import ListNotations.
Open Scope list_scope.
Open Scope Z_scope.

(** [simp_op] is one large nest of matches on the operator kind, compiled into a term of some 15 MB.  Abstracting over
    [opk_of op] in it, or unfolding it under a variable operator, costs seconds at every step.  Applied to a literal operator it
    is specialised by computation: lazy reduction decides the string comparisons and never enters the branches not taken. *)
Ltac simp_op_lit := lazy beta iota zeta delta [simp_op opk_of is_assoc String.eqb Ascii.eqb Bool.eqb].

Lemma bind_ok {A B} (m : res A) (f : A -> res B) r : bind m f = Ok r -> exists a, m = Ok a /\ f a = Ok r.
Proof. destruct m as [a| |]; try discriminate. exists a. auto. Qed.

(** congruence modulo 2^w: by definition [wrap w a = wrap w b], under a name of its own so that the rule of each operator
    (cong_add, cong_mul, cong_bitwise) is stated once and the steps of a rewriting rule compose by cong_trans *)
Definition cong (w a b : Z) : Prop := a mod 2 ^ w = b mod 2 ^ w.
Lemma cong_refl w a : cong w a a. Proof. reflexivity. Qed.
Lemma cong_sym w a b : cong w a b -> cong w b a. Proof. unfold cong; auto. Qed.
Lemma cong_trans w a b c : cong w a b -> cong w b c -> cong w a c. Proof. unfold cong; congruence. Qed.
Lemma cong_wrap w a : 0 <= w -> cong w (wrap w a) a.
Proof. intros H. unfold cong, wrap. apply Z.mod_mod. apply Z.pow_nonzero; lia. Qed.
Lemma wrap_cong w a b : cong w a b -> wrap w a = wrap w b. Proof. auto. Qed.

Section Cong.
  Variable w : Z.
  Hypothesis Hw : 0 <= w.
  Let P : 2 ^ w <> 0. Proof. apply Z.pow_nonzero; lia. Qed.

  Lemma cong_add a a' b b' : cong w a a' -> cong w b b' -> cong w (a + b) (a' + b').
  Proof. unfold cong. intros H1 H2. rewrite (Z.add_mod a b), (Z.add_mod a' b') by exact P. rewrite H1, H2. reflexivity. Qed.
  Lemma cong_mul a a' b b' : cong w a a' -> cong w b b' -> cong w (a * b) (a' * b').
  Proof. unfold cong. intros H1 H2. rewrite (Z.mul_mod a b), (Z.mul_mod a' b') by exact P. rewrite H1, H2. reflexivity. Qed.
  Lemma cong_opp a a' : cong w a a' -> cong w (- a) (- a').
  Proof. intros H. replace (- a) with ((-1) * a) by lia. replace (- a') with ((-1) * a') by lia. apply cong_mul; [apply cong_refl | assumption]. Qed.
  Lemma cong_sub a a' b b' : cong w a a' -> cong w b b' -> cong w (a - b) (a' - b').
  Proof. intros H1 H2. unfold Z.sub. apply cong_add; [assumption | apply cong_opp; assumption]. Qed.
  Lemma cong_bits a b : cong w a b <-> (forall i, 0 <= i < w -> Z.testbit a i = Z.testbit b i).
  Proof.
    split; [|apply wrap_eq_bits; exact Hw]. intros H i Hi. rewrite <- (testbit_wrap w a i Hi), <- (testbit_wrap w b i Hi). f_equal. exact H.
  Qed.
  Lemma cong_bitwise f g : (forall a b i, Z.testbit (f a b) i = g (Z.testbit a i) (Z.testbit b i)) ->
    forall a a' b b', cong w a a' -> cong w b b' -> cong w (f a b) (f a' b').
  Proof. intros F a a' b b'. rewrite !cong_bits. intros H1 H2 i Hi. rewrite !F, H1, H2 by assumption. reflexivity. Qed.
End Cong.

Inductive aop := AAdd | AMul | AXor | AOr | AAnd.
Definition aop_of (op : string) : option aop :=
  match opk_of op with OAdd => Some AAdd | OMul => Some AMul | OXor => Some AXor | OOr => Some AOr | OAnd => Some AAnd | _ => None end.
Definition aop_str (k : aop) : string := match k with AAdd => "+" | AMul => "*" | AXor => "^" | AOr => "|" | AAnd => "&" end.
Lemma aop_of_str op k : aop_of op = Some k -> op = aop_str k.
Proof. unfold aop_of. intros H. rewrite (opk_name op) by (destruct (opk_of op); discriminate). destruct (opk_of op); inversion H; reflexivity. Qed.
Definition af (k : aop) : Z -> Z -> Z := match k with AAdd => Z.add | AMul => Z.mul | AXor => Z.lxor | AOr => Z.lor | AAnd => Z.land end.
Definition au (k : aop) : Z := match k with AAdd => 0 | AMul => 1 | AXor => 0 | AOr => 0 | AAnd => -1 end.
Definition afold (k : aop) (vs : list Z) : Z := fold_left (af k) vs (au k).

Lemma af_comm k a b : af k a b = af k b a.
Proof. destruct k; simpl; [apply Z.add_comm | apply Z.mul_comm | apply Z.lxor_comm | apply Z.lor_comm | apply Z.land_comm]. Qed.
Lemma af_assoc k a b c : af k (af k a b) c = af k a (af k b c).
Proof. destruct k; simpl; [lia | lia | apply Z.lxor_assoc | symmetry; apply Z.lor_assoc | symmetry; apply Z.land_assoc]. Qed.
Lemma af_unit k a : af k (au k) a = a.
Proof. destruct k; simpl; [lia | destruct a; reflexivity | apply Z.lxor_0_l | apply Z.lor_0_l | apply Z.land_m1_l]. Qed.
Lemma af_cong k w a a' b b' : 0 <= w -> cong w a a' -> cong w b b' -> cong w (af k a b) (af k a' b').
Proof.
  intros H. destruct k; cbn [af];
    [apply cong_add | apply cong_mul | apply (cong_bitwise w H _ xorb Z.lxor_spec) | apply (cong_bitwise w H _ orb Z.lor_spec) | apply (cong_bitwise w H _ andb Z.land_spec)]; assumption.
Qed.

Lemma afold_big k vs : afold k vs = bigop (af k) (au k) (fun v => v) vs.
Proof. unfold afold. rewrite (fold_left_big (af k) (au k) (fun a b c => eq_sym (af_assoc k a b c)) (af_comm k) (af_unit k)). apply af_unit. Qed.
Lemma afold_cons k v vs : afold k (v :: vs) = af k v (afold k vs).
Proof. rewrite !afold_big. apply big_cons. Qed.
Lemma afold_1 k v : afold k [v] = v.
Proof. rewrite afold_cons. change (afold k []) with (au k). rewrite af_comm. apply af_unit. Qed.
Lemma afold_2 k a b : afold k [a; b] = af k a b.
Proof. rewrite afold_cons, afold_1. reflexivity. Qed.
Lemma afold_app k l1 l2 : afold k (l1 ++ l2) = af k (afold k l1) (afold k l2).
Proof. rewrite !afold_big. apply big_app; [intros a b c; symmetry; apply af_assoc | apply af_unit]. Qed.
Lemma afold_perm k l l' : Permutation l l' -> afold k l = afold k l'.
Proof. rewrite !afold_big. apply big_perm; [intros a b c; symmetry; apply af_assoc | apply af_comm]. Qed.
Lemma afold_cong k w l l' : 0 <= w -> Forall2 (cong w) l l' -> cong w (afold k l) (afold k l').
Proof. intros H F. induction F as [|a b l l' Hab _ IH]; [apply cong_refl | rewrite !afold_cons; apply af_cong; assumption]. Qed.

Lemma eval_op_assoc iota op k w vs : aop_of op = Some k -> vs <> [] -> eval_op iota op w vs = wrap w (afold k vs).
Proof.
  unfold aop_of, eval_op. intros H NE. destruct (opk_of op); try discriminate; inversion H; subst; unfold afold; cbn [af au]; try reflexivity.
  destruct vs as [|v r]; [contradiction|]. cbn [fold_left]. rewrite Z.land_m1_l. reflexivity.
Qed.

Lemma insert_by_perm {A} (kf : A -> key) x l : Permutation (insert_by kf x l) (x :: l).
Proof.
  induction l as [|y r IH]; simpl; [reflexivity|]. destruct (key_cmp (kf x) (kf y)); try reflexivity;
    (apply perm_trans with (y :: x :: r); [apply perm_skip; exact IH | apply perm_swap]).
Qed.
Lemma sort_by_perm {A} (kf : A -> key) l : Permutation (sort_by kf l) l.
Proof.
  unfold sort_by. assert (G : forall acc, Permutation (fold_left (fun acc x => insert_by kf x acc) l acc) (acc ++ l)).
  { induction l as [|x l IH]; intros acc; simpl; [rewrite app_nil_r; reflexivity|].
    eapply perm_trans; [apply IH|]. eapply perm_trans; [apply Permutation_app_tail; apply insert_by_perm|].
    simpl. apply Permutation_cons_app. reflexivity. }
  apply (G []).
Qed.

Lemma mapM_Forall2 {A B} (f : A -> res B) l l' : mapM f l = Ok l' -> Forall2 (fun a b => f a = Ok b) l l'.
Proof.
  revert l'. induction l as [|a l IH]; intros l' H; cbn [mapM] in H; [inversion H; constructor|].
  apply bind_ok in H as (b & Ea & H). apply bind_ok in H as (r' & Er & H). inversion H; subst. constructor; [exact Ea | exact (IH _ Er)].
Qed.
Lemma Forall2_impl_in {A B} (R Q : A -> B -> Prop) l l' : Forall (fun a => forall b, R a b -> Q a b) l -> Forall2 R l l' -> Forall2 Q l l'.
Proof. intros F F2. induction F2; inversion F; subst; constructor; auto. Qed.
Lemma Forall2_impl {A B} (R Q : A -> B -> Prop) l l' : (forall a b, R a b -> Q a b) -> Forall2 R l l' -> Forall2 Q l l'.
Proof. intros H F. induction F; constructor; auto. Qed.

(** [visitM cb] rebuilds a node from the visited children, keeps the old node when nothing changed, and applies [cb].
    [rebuilt P e n]: n is e with each child c replaced by some c' with P c c'. *)
Inductive rebuilt (P : expr -> expr -> Prop) : expr -> expr -> Prop :=
| rb_int sg w v : rebuilt P (EInt sg w v) (EInt sg w v)
| rb_id n w r t : rebuilt P (EId n w r t) (EId n w r t)
| rb_mem a a' w s s' : P a a' -> match s, s' with Some u, Some u' => P u u' | None, None => True | _, _ => False end ->
    rebuilt P (EMem a w s) (EMem a' w s')
| rb_op op l l' : Forall2 P l l' -> rebuilt P (EOp op l) (EOp op l')
| rb_cond c a b c' a' b' : P c c' -> P a a' -> P b b' -> rebuilt P (ECond c a b) (ECond c' a' b')
| rb_slice a a' lo hi : P a a' -> rebuilt P (ESlice a lo hi) (ESlice a' lo hi)
| rb_compose l l' : Forall2 (fun s s' => P (slot_e s) (slot_e s') /\ slot_lo s' = slot_lo s /\ slot_hi s' = slot_hi s) l l' ->
    rebuilt P (ECompose l) (ECompose l')
| rb_aff d s d' s' : P d d' -> P s s' -> rebuilt P (EAff d s) (EAff d' s').

(** To show P e r for every result r of the traversal of e, it is enough to show it for the result of [cb] on a node rebuilt from
    children related by P ([b] is the test "nothing changed": the rebuilt node then == the old one). *)
Lemma visitM_ind (cb : expr -> res expr) (P : expr -> expr -> Prop) :
  (forall e n (b : bool) r, rebuilt P e n -> (b = true -> expr_eqb n e = true) -> cb (if b then e else n) = Ok r -> P e r) ->
  forall e r, visitM cb e = Ok r -> P e r.
Proof.
  intros Step. induction e using expr_ind'; intros x HV; cbn [visitM] in HV.
  - apply (Step _ _ true x (rb_int P sg w v)); [intros _; apply eqb_refl | exact HV].
  - apply (Step _ _ true x (rb_id P n w r t)); [intros _; apply eqb_refl | exact HV].
  - apply bind_ok in HV as (s' & Es & HV). apply bind_ok in HV as (a' & Ea & HV). eapply Step; [| |exact HV].
    + constructor; [exact (IHe _ Ea)|]. destruct s as [u|]; [apply bind_ok in Es as (u' & Eu & Es)|]; inversion Es; subst; [exact (H _ Eu) | exact I].
    + intros Q. apply andb_true_iff in Q as [Q1 Q2]. rewrite eqb_mem, Q1, Q2, Z.eqb_refl. reflexivity.
  - apply bind_ok in HV as (args' & Em & HV). eapply Step; [| |exact HV].
    + constructor. exact (Forall2_impl_in _ _ _ _ H (mapM_Forall2 _ _ _ Em)).
    + intros Q. rewrite eqb_sym, eqb_op, String.eqb_refl. exact Q.
  - apply bind_ok in HV as (c' & E1 & HV). apply bind_ok in HV as (a' & E2 & HV). apply bind_ok in HV as (b' & E3 & HV). eapply Step; [| |exact HV].
    + constructor; auto.
    + intros Q. rewrite eqb_cond. exact Q.
  - apply bind_ok in HV as (a' & Ea & HV). eapply Step; [| |exact HV].
    + constructor. exact (IHe _ Ea).
    + intros Q. rewrite eqb_slice, Q, !Z.eqb_refl. reflexivity.
  - apply bind_ok in HV as (args' & Em & HV). eapply Step; [| |exact HV].
    + constructor. refine (Forall2_impl_in _ _ _ _ _ (mapM_Forall2 _ _ _ Em)). eapply Forall_impl; [|exact H].
      intros s IHs t Et. apply bind_ok in Et as (y & Ey & Et). inversion Et; subst t. split; [exact (IHs _ Ey) | split; reflexivity].
    + intros Q. rewrite eqb_sym, eqb_compose. exact Q.
  - apply bind_ok in HV as (d' & Ed & HV). apply bind_ok in HV as (s' & Es & HV). eapply Step; [| |exact HV].
    + constructor; auto.
    + intros Q. rewrite eqb_aff, andb_comm. exact Q.
Qed.

(** Well-formed trees: constants, identifiers, memory cells, conditionals, slices, concatenations and the operators below;
    every width is at most 64 *)
Definition frag_op (op : string) : bool := match opk_of op with OAdd | OMul | OXor | OAnd | OOr | OSub | OShl | OShr | OSar | ORol | ORor | OEq | OParity => true | _ => false end.
Definition is_shift (op : string) : bool := match opk_of op with OShl | OShr | OSar => true | _ => false end.
Definition same_size (n : Z) (args : list expr) : bool := forallb (fun a => size a =? n) args.
(** rotations: a value of width 8, 16, 32 or 64 and an 8-bit count (what the lifter produces: cl or an imm8) *)
Definition rot_args_ok (n : Z) (args : list expr) : bool :=
  match args with [_; c] => (size c =? 8) && ((n =? 8) || (n =? 16) || (n =? 32) || (n =? 64)) | _ => false end.
Definition is_sr (op : string) : bool := is_shift op || is_rot op.
(** operands: one width for + * ^ & | - == parity (two operands for ==, one for parity, at most two for -); a value and a count
    (any widths) for the shifts *)
Definition args_ok (op : string) (n : Z) (args : list expr) : bool :=
  if is_shift op then Nat.eqb (List.length args) 2 else if is_rot op then rot_args_ok n args else same_size n args.
Definition op_ok (op : string) (args : list expr) : bool :=
  match args with
  | [] => false
  | a :: _ => frag_op op && args_ok op (size a) args &&
              match opk_of op with OSub => (Nat.leb (List.length args) 2) | OEq => Nat.eqb (List.length args) 2 | OParity => Nat.eqb (List.length args) 1 | _ => true end
  end.
(** concatenations: non-empty; every slot non-empty inside [0, 64]; a constant piece at least as wide as its slot, any other piece exactly
    as wide; starts pairwise distinct, one of them 0, no two slots overlap. *)
Fixpoint nodupZ (l : list Z) : bool := match l with [] => true | x :: r => negb (existsb (Z.eqb x) r) && nodupZ r end.
Definition piece_shape (e : expr) (lo hi : Z) : bool := match e with EInt _ w _ => hi - lo <=? w | _ => size e =? hi - lo end.
Definition slot_geom (s : slot) : bool :=
  (0 <=? slot_lo s) && (slot_lo s <? slot_hi s) && (slot_hi s <=? 64) && piece_shape (slot_e s) (slot_lo s) (slot_hi s).
Definition slots_ok (slots : list slot) : bool :=
  negb (match slots with [] => true | _ => false end) && forallb slot_geom slots && nodupZ (map slot_lo slots) && existsb (fun s => slot_lo s =? 0) slots && pdisj slots.
Lemma nodupZ_spec l : nodupZ l = true <-> NoDup l.
Proof.
  induction l as [|x r IH]; simpl; [split; [constructor | reflexivity]|].
  rewrite andb_true_iff, negb_true_iff, IH, <- not_true_iff_false, existsb_exists. split.
  - intros [N D]. constructor; [|exact D]. intros I. apply N. exists x. split; [exact I | apply Z.eqb_refl].
  - intros H. inversion H as [|? ? N D]; subst. split; [|exact D]. intros (y & Iy & Q). apply Z.eqb_eq in Q. subst y. contradiction.
Qed.
Lemma piece_shape_alt e lo hi : piece_shape e lo hi = if is_int e then hi - lo <=? size e else size e =? hi - lo.
Proof. destruct e; reflexivity. Qed.
Lemma op_ok_sizes op l l' : map size l' = map size l -> op_ok op l' = op_ok op l.
Proof.
  (* each ingredient of [op_ok] is a function of the list of widths: the length, the one-width test, the test for rotations *)
  intros E. assert (Ln : List.length l' = List.length l) by (rewrite <- (map_length size l'), E; apply map_length).
  assert (Ss : forall n, same_size n l' = same_size n l).
  { intros n. unfold same_size. clear Ln. revert l' E. induction l as [|x l IH]; intros [|y l'] E; try discriminate E; [reflexivity|].
    injection E as E1 E2. cbn [forallb]. rewrite E1, (IH l' E2). reflexivity. }
  assert (Ro : forall n, rot_args_ok n l' = rot_args_ok n l).
  { intros n. destruct l as [|a [|c [|? ?]]], l' as [|a' [|c' [|? ?]]]; try discriminate E; try reflexivity. injection E as _ E2. cbn [rot_args_ok]. rewrite E2. reflexivity. }
  unfold op_ok, args_ok. destruct l as [|a r], l' as [|a' r']; try discriminate E; [reflexivity|]. injection E as Ea _. rewrite Ea, Ln, Ss, Ro. reflexivity.
Qed.

(** [IdQ name width is_reg is_term]: an arbitrary predicate every identifier of the tree satisfies (the simplifier never invents identifiers, so it is preserved);
    [ac] switches concatenations on or off (the theorems about eval_expr are stated for trees without concatenations) *)
Section IdPred.
Variable ac : bool.
Variable IdQ : string -> Z -> bool -> bool -> bool.
Fixpoint wf (e : expr) : bool :=
  match e with
  | EInt sg w v => negb sg && ((0 <? w) && (w <=? 64)) && (0 <=? v) && (v <? 2 ^ w)
  | EId n w r t => ((0 <? w) && (w <=? 64)) && IdQ n w r t
  | EMem a w s => wf a && ((0 <? w) && (w <=? 64)) && match s with None => true | Some u => wf u end
  | ESlice e1 lo hi => wf e1 && (0 <=? lo) && (lo <? hi) && (hi <=? size e1)
  | EOp op args => forallb wf args && op_ok op args
  | ECond c a b => wf c && wf a && wf b && (size a =? size b)
  | ECompose slots => ac && forallb (fun s => wf (slot_e s)) slots && slots_ok slots
  | _ => false
  end.

Definition all_wf (l : list expr) : Prop := Forall (fun a => wf a = true) l.
Definition all_size (n : Z) (l : list expr) : Prop := Forall (fun a => size a = n) l.
Lemma forallb_Forall {A} (f : A -> bool) l : forallb f l = true <-> Forall (fun a => f a = true) l.
Proof. rewrite forallb_forall, Forall_forall. reflexivity. Qed.
Lemma same_size_all n l : same_size n l = true <-> all_size n l.
Proof. unfold same_size, all_size. rewrite forallb_Forall. split; intros H; eapply Forall_impl; try exact H; intros a; apply Z.eqb_eq. Qed.

Lemma wf_int_iff sg w v : wf (EInt sg w v) = true <-> sg = false /\ 0 < w <= 64 /\ 0 <= v < 2 ^ w.
Proof. cbn [wf]. rewrite !andb_true_iff, negb_true_iff, !Z.ltb_lt, !Z.leb_le. tauto. Qed.
Lemma wf_id_iff n w r t : wf (EId n w r t) = true <-> 0 < w <= 64 /\ IdQ n w r t = true.
Proof. cbn [wf]. rewrite !andb_true_iff, Z.ltb_lt, Z.leb_le. tauto. Qed.
Lemma wf_mem_iff a w s : wf (EMem a w s) = true <-> wf a = true /\ 0 < w <= 64 /\ match s with None => True | Some u => wf u = true end.
Proof. cbn [wf]. rewrite !andb_true_iff, Z.ltb_lt, Z.leb_le. destruct s; intuition. Qed.
Lemma wf_slice_iff a lo hi : wf (ESlice a lo hi) = true <-> wf a = true /\ 0 <= lo /\ lo < hi /\ hi <= size a.
Proof. cbn [wf]. rewrite !andb_true_iff, Z.ltb_lt, !Z.leb_le. tauto. Qed.
Lemma wf_cond_iff c a b : wf (ECond c a b) = true <-> wf c = true /\ wf a = true /\ wf b = true /\ size a = size b.
Proof. cbn [wf]. rewrite !andb_true_iff, Z.eqb_eq. tauto. Qed.
Lemma wf_op_iff op args : wf (EOp op args) = true <-> all_wf args /\ op_ok op args = true.
Proof. cbn [wf]. rewrite andb_true_iff, forallb_Forall. reflexivity. Qed.

Lemma op_ok_inv op args : op_ok op args = true ->
  exists a r, args = a :: r /\ frag_op op = true /\ args_ok op (size a) args = true.
Proof.
  unfold op_ok. destruct args as [|a r]; [discriminate|]. rewrite !andb_true_iff. intros [[F S] _]. exists a, r. auto.
Qed.
Lemma args_ok_noshift op n args : is_sr op = false -> args_ok op n args = same_size n args.
Proof. unfold is_sr. intros H. apply orb_false_iff in H as [H1 H2]. unfold args_ok. rewrite H1, H2. reflexivity. Qed.
Lemma wf_op_inv op args : wf (EOp op args) = true -> is_sr op = false ->
  all_wf args /\ exists a r, args = a :: r /\ frag_op op = true /\ all_size (size a) args.
Proof.
  intros W NS. apply wf_op_iff in W as [W O]. split; [exact W|].
  destruct (op_ok_inv _ _ O) as (a & r & E & F & S). exists a, r. rewrite (args_ok_noshift op _ _ NS), same_size_all in S. auto.
Qed.

Lemma op_node_rel iota r1 m1 r2 m2 op args args' : wf (EOp op args) = true ->
  Forall2 (fun a a' => wf a' = true /\ size a' = size a /\ eval r1 m1 iota a' = eval r2 m2 iota a) args args' ->
  wf (EOp op args') = true /\ size (EOp op args') = size (EOp op args) /\ eval r1 m1 iota (EOp op args') = eval r2 m2 iota (EOp op args).
Proof.
  intros W F. apply wf_op_iff in W as [_ O].
  assert (Sz : map size args' = map size args) by (apply (Forall2_maps _ _ _ _ _ F); intros a b R; apply R).
  assert (Ev : map (eval r1 m1 iota) args' = map (eval r2 m2 iota) args) by (apply (Forall2_maps _ _ _ _ _ F); intros a b R; apply R).
  pose proof (size_op_heads op args' op args Sz) as S.
  split; [|split; [exact S | rewrite !eval_op_node, Ev, S; reflexivity]].
  apply wf_op_iff. split; [|rewrite (op_ok_sizes op args args' Sz); exact O].
  clear - F. induction F as [|a b l l' Hab _ IH]; constructor; [apply Hab | exact IH].
Qed.

Definition slot_ok (s : slot) : Prop :=
  wf (slot_e s) = true /\ 0 <= slot_lo s /\ slot_lo s < slot_hi s /\ slot_hi s <= 64 /\ piece_shape (slot_e s) (slot_lo s) (slot_hi s) = true.
Lemma wf_compose_iff l : wf (ECompose l) = true <->
  ac = true /\ l <> [] /\ (forall s, In s l -> slot_ok s) /\ NoDup (map slot_lo l) /\ (exists a, In a l /\ slot_lo a = 0) /\ forall i, occ l i <= 1.
Proof.
  cbn [wf]. unfold slots_ok. rewrite !andb_true_iff, negb_true_iff, !forallb_forall, nodupZ_spec, existsb_exists.
  assert (G : forall s, wf (slot_e s) = true /\ slot_geom s = true <-> slot_ok s)
    by (intros s; unfold slot_geom, slot_ok; rewrite !andb_true_iff, Z.ltb_lt, !Z.leb_le; tauto).
  assert (Z0 : (exists a, In a l /\ (slot_lo a =? 0) = true) <-> exists a, In a l /\ slot_lo a = 0)
    by (split; intros (a & Ia & Q); exists a; (split; [exact Ia | apply Z.eqb_eq; exact Q])).
  rewrite Z0. split.
  - intros ((A & Wp) & (((Ne & Ge) & Nd) & Ex) & Pd). split; [exact A|]. split; [destruct l; discriminate|].
    split; [intros s Is; apply G; auto|]. split; [exact Nd|]. split; [exact Ex | apply pdisj_occ; exact Pd].
  - intros (A & Ne & Hs & Nd & Ex & Oc). assert (Pd : pdisj l = true) by (apply occ_pdisj; [intros b Ib; apply (Hs b Ib) | exact Oc]).
    destruct l; [contradiction|]. repeat split; try assumption; intros s Is; apply G, Hs, Is.
Qed.
Lemma wf_compose_intro l : ac = true -> (forall s, In s l -> slot_ok s) -> (exists a, In a l /\ slot_lo a = 0) -> (forall i, occ l i <= 1) ->
  wf (ECompose l) = true.
Proof.
  intros A Hs Ex Oc. apply wf_compose_iff. split; [exact A|]. split; [destruct Ex as (a & Ia & _); intros ->; exact Ia|].
  split; [exact Hs|]. split; [|split; [exact Ex | exact Oc]]. apply occ_nodup; [intros s Is; apply (Hs s Is) | exact Oc].
Qed.
Lemma wf_compose_size l : wf (ECompose l) = true -> size (ECompose l) = maxhi l /\ 0 < maxhi l /\ maxhi l <= 64.
Proof.
  intros W. destruct (proj1 (wf_compose_iff l) W) as (_ & Ne & Hs & _ & Ex & _). destruct l as [|s0 r]; [contradiction|].
  destruct (compose_size s0 r) as [E P]; [intros a Ha; destruct (Hs a Ha) as (_ & A1 & A2 & _); lia | exact Ex|].
  split; [exact E|]. split; [exact P|]. apply maxhi_le_iff; [lia|]. intros a Ha. apply (Hs a Ha).
Qed.

Section Sound.
  Variable rho : string -> Z.
  Variable mu : Z -> Z.
  Variable iota : string -> list Z -> Z.
  Notation ev := (eval rho mu iota).

  Lemma eval_op_range op w vs : 0 < w -> 0 <= eval_op iota op w vs < 2 ^ w.
  Proof.
    intros Hw. assert (P : 0 < 2 ^ w) by (apply Z.pow_pos_nonneg; lia).
    assert (R : forall v, 0 <= wrap w v < 2 ^ w) by (intros; apply wrap_range; lia).
    unfold eval_op, rol, ror. destruct (opk_of op); destruct vs as [|v1 [|v2 [|v3 r]]];
      repeat match goal with
             | |- 0 <= wrap _ _ < _ => apply R
             | |- 0 <= 0 < _ => lia
             | |- context [if ?c then _ else _] => destruct c
             | |- context [match ?x with Some _ => _ | None => _ end] => destruct x
             end.
  Qed.

  Lemma wf_bounds : forall e, wf e = true -> 0 < size e <= 64 /\ 0 <= ev e < 2 ^ size e.
  Proof.
    induction e using expr_ind'; intros W; try discriminate W.
    - apply wf_int_iff in W as (_ & Pw & _). split; [exact Pw | apply wrap_range; cbn [size]; lia].
    - apply wf_id_iff in W as (Pw & _). split; [exact Pw | apply wrap_range; cbn [size]; lia].
    - apply wf_mem_iff in W as (_ & Pw & _). split; [exact Pw | apply wrap_range; cbn [size]; lia].
    - apply wf_op_iff in W as (Wl & O). destruct (op_ok_inv _ _ O) as (a & r & -> & _).
      inversion H as [|? ? Ha _]; inversion Wl as [|? ? Wa _]; subst. destruct (Ha Wa) as [Pa _].
      rewrite eval_op_node, size_op by lia. split; [exact Pa | apply eval_op_range; lia].
    - apply wf_cond_iff in W as (_ & Wa & Wb & Sab). cbn [size eval]. destruct (ev e1 =? 0); [rewrite Sab|]; auto.
    - apply wf_slice_iff in W as (Wa & L0 & Llh & Lhs). destruct (IHe Wa) as [Pa _]. cbn [size eval]. split; [lia | apply wrap_range; lia].
    - destruct (wf_compose_size _ W) as (E & P & L). destruct (proj1 (wf_compose_iff _) W) as (_ & _ & Hs & _). rewrite E, eval_compose_V. split; [lia|].
      apply V_range; [lia|]. intros a Ha. pose proof (maxhi_ge args a Ha). destruct (Hs a Ha) as (_ & A1 & A2 & _). lia.
  Qed.
  Lemma wf_range e : wf e = true -> 0 < size e /\ 0 <= ev e < 2 ^ size e.
  Proof. intros W. destruct (wf_bounds e W) as [[P _] R]. auto. Qed.

  Definition good (e e' : expr) : Prop := wf e' = true /\ size e' = size e /\ ev e' = ev e.
  Lemma good_refl e : wf e = true -> good e e.
  Proof. intros W. repeat split; assumption. Qed.
  Lemma good_keep e e' : wf e = true -> Ok e = Ok e' -> good e e'.
  Proof. intros W Q. inversion Q. subst. apply good_refl. exact W. Qed.
  Lemma good_trans e1 e2 e3 : good e1 e2 -> good e2 e3 -> good e1 e3.
  Proof. intros (A & B & C) (A' & B' & C'). repeat split; [assumption | congruence | congruence]. Qed.

  (** a concatenation of well-formed slots with the occupancy and the OR of fields of a well-formed one is as good *)
  Lemma compose_good l l' : wf (ECompose l) = true -> (forall s, In s l' -> slot_ok s) -> (forall i, occ l' i = occ l i) ->
    V rho mu iota l' = V rho mu iota l -> good (ECompose l) (ECompose l').
  Proof.
    intros W Hs' Eo EV. destruct (proj1 (wf_compose_iff l) W) as (A & _ & Hs & _ & (a0 & Ia0 & Z0) & Oc).
    assert (W' : wf (ECompose l') = true).
    { apply wf_compose_intro; [exact A | exact Hs' | | intros i; rewrite Eo; apply Oc].
      (* position 0 is covered in l, so in l', by a slot that cannot start below it *)
      destruct (proj1 (occ_cover l' 0)) as (b & Ib & Cb).
      - rewrite Eo. apply occ_cover. exists a0. split; [exact Ia0|]. destruct (Hs a0 Ia0) as (_ & _ & A2 & _). lia.
      - exists b. split; [exact Ib|]. destruct (Hs' b Ib) as (_ & B1 & _). lia. }
    split; [exact W'|]. split; [|rewrite !eval_compose_V; exact EV].
    rewrite (proj1 (wf_compose_size _ W')), (proj1 (wf_compose_size _ W)).
    apply Z.le_antisymm; apply maxhi_occ_le.
    - intros s Is. apply (Hs' s Is).
    - intros i. rewrite Eo. apply Z.le_refl.
    - intros s Is. apply (Hs s Is).
    - intros i. rewrite Eo. apply Z.le_refl.
  Qed.

  Lemma wf_wrapped_int n v : 0 < n <= 64 -> wf (EInt false n (wrap n v)) = true /\ size (EInt false n (wrap n v)) = n /\ ev (EInt false n (wrap n v)) = wrap n v.
  Proof.
    intros H. pose proof (wrap_range n v ltac:(lia)) as R. split; [apply wf_int_iff; auto|]. split; [reflexivity | apply wrap_small; exact R].
  Qed.
  Lemma wf_int_inv sg w v : wf (EInt sg w v) = true -> sg = false /\ 0 < w <= 64 /\ 0 <= v < 2 ^ w /\ ev (EInt sg w v) = v.
  Proof. intros H. apply wf_int_iff in H as (S & Pw & Rv). repeat split; try assumption; try lia. apply wrap_small. exact Rv. Qed.
  Lemma mk_int_ok n v e : mk_int n v = Ok e -> e = EInt false n (wrap n v).
  Proof. unfold mk_int. destruct (std_width n); intros H; inversion H; reflexivity. Qed.
  (** the two ways a rule ends when it fires: with a constant, or with one of the operands *)
  Lemma good_int e n z : 0 < n <= 64 -> size e = n -> ev e = wrap n z -> good e (EInt false n (wrap n z)).
  Proof. intros Pn S E. destruct (wf_wrapped_int n z Pn) as (A & B & C). repeat split; congruence. Qed.
  Lemma good_operand e a : wf a = true -> size e = size a -> ev e = wrap (size a) (ev a) -> good e a.
  Proof.
    intros W S E. destruct (wf_range a W) as [_ R]. split; [exact W|]. split; [symmetry; exact S|]. rewrite E. symmetry. apply wrap_small, R.
  Qed.
  Lemma is_int_val_ev x z : is_int_val x z = true -> wf x = true -> ev x = z.
  Proof. destruct x; try discriminate. cbn [is_int_val]. intros Q W. apply Z.eqb_eq in Q. subst. apply (wf_int_inv _ _ _ W). Qed.

  Lemma ev_assoc op k a r : aop_of op = Some k -> 0 < size a ->
    ev (EOp op (a :: r)) = wrap (size a) (afold k (map ev (a :: r))).
  Proof.
    intros K Ha. rewrite eval_op_node, size_op by lia. apply eval_op_assoc; [assumption | simpl; discriminate].
  Qed.

  Lemma aop_assoc op k : aop_of op = Some k -> is_assoc op = true.
  Proof. unfold aop_of, is_assoc. destruct (opk_of op); try discriminate; reflexivity. Qed.
  Lemma aop_frag op k : aop_of op = Some k -> frag_op op = true.
  Proof. unfold aop_of, frag_op. destruct (opk_of op); try discriminate; reflexivity. Qed.
  Lemma aop_not_sub op k : aop_of op = Some k -> opk_of op <> OSub.
  Proof. unfold aop_of. destruct (opk_of op); try discriminate; congruence. Qed.
  Lemma aop_noshift op k : aop_of op = Some k -> is_sr op = false.
  Proof. unfold aop_of, is_sr, is_shift, is_rot. destruct (opk_of op); try discriminate; reflexivity. Qed.

  Lemma wf_assoc_inv op k l : aop_of op = Some k -> wf (EOp op l) = true -> exists n, 0 < n /\ l <> [] /\ all_wf l /\ all_size n l.
  Proof.
    intros K W. destruct (wf_op_inv _ _ W (aop_noshift _ _ K)) as (Wl & a & r & -> & _ & Sl). exists (size a).
    inversion Wl; subst. split; [apply wf_range; assumption|]. split; [discriminate | auto].
  Qed.
  Lemma assoc_node op k n l : aop_of op = Some k -> 0 < n -> l <> [] -> all_wf l -> all_size n l ->
    wf (EOp op l) = true /\ size (EOp op l) = n /\ ev (EOp op l) = wrap n (afold k (map ev l)).
  Proof.
    intros K Hn NE W S. destruct l as [|a r]; [contradiction|]. inversion S as [|? ? Sa _]; subst.
    split; [|split; [apply size_op; lia | apply ev_assoc; assumption]].
    apply wf_op_iff. split; [exact W|]. unfold op_ok. rewrite (aop_frag _ _ K), (args_ok_noshift op _ _ (aop_noshift _ _ K)), (proj2 (same_size_all _ _) S).
    unfold aop_of in K. destruct (opk_of op); try discriminate K; reflexivity.
  Qed.

  (** Every stage of the n-ary rules (flattening, sorting, constant folding, A op 0, duplicate removal) maps a list of well-formed
      operands of width n to another such list with the same fold modulo 2^n, and keeps a non-empty list non-empty. *)
  Definition lrel (k : aop) (n : Z) (l l' : list expr) : Prop :=
    0 < n -> all_wf l -> all_size n l ->
    all_wf l' /\ all_size n l' /\ cong n (afold k (map ev l')) (afold k (map ev l)) /\ (l <> [] -> l' <> []).
  Lemma lrel_refl k n l : lrel k n l l.
  Proof. intros _ W S. repeat split; auto. Qed.
  Lemma lrel_trans k n l1 l2 l3 : lrel k n l1 l2 -> lrel k n l2 l3 -> lrel k n l1 l3.
  Proof.
    intros R1 R2 Hn W S. destruct (R1 Hn W S) as (W2 & S2 & C2 & N2). destruct (R2 Hn W2 S2) as (W3 & S3 & C3 & N3).
    repeat split; auto. eapply cong_trans; eassumption.
  Qed.
  Lemma lrel_perm k n l l' : Permutation l l' -> lrel k n l l'.
  Proof.
    intros P _ W S. split; [apply (Permutation_Forall P W)|]. split; [apply (Permutation_Forall P S)|]. split.
    - rewrite (afold_perm k _ _ (Permutation_map ev P)). apply cong_refl.
    - intros NE E. subst l'. apply NE, Permutation_nil, Permutation_sym, P.
  Qed.
  Lemma lrel_node op k n l l' : aop_of op = Some k -> 0 < n -> l <> [] -> all_wf l -> all_size n l -> lrel k n l l' -> good (EOp op l) (EOp op l').
  Proof.
    intros K Hn NE Wl Sl R. destruct (R Hn Wl Sl) as (W' & S' & C & N).
    destruct (assoc_node op k n l K Hn NE Wl Sl) as (_ & Sz & E). destruct (assoc_node op k n l' K Hn (N NE) W' S') as (A' & Sz' & E').
    split; [exact A'|]. split; [congruence|]. rewrite E', E. apply wrap_cong, C.
  Qed.
  Lemma perm_node_good op k l l' : aop_of op = Some k -> Permutation l l' -> wf (EOp op l) = true -> good (EOp op l) (EOp op l').
  Proof.
    intros K P W. destruct (wf_assoc_inv _ _ _ K W) as (n & Hn & NE & Wl & Sl). exact (lrel_node op k n l l' K Hn NE Wl Sl (lrel_perm k n l l' P)).
  Qed.
  Lemma lrel_app k n l1 l1' l2 l2' : lrel k n l1 l1' -> lrel k n l2 l2' -> lrel k n (l1 ++ l2) (l1' ++ l2').
  Proof.
    intros R1 R2 Hn W S. apply Forall_app in W as [W1 W2]. apply Forall_app in S as [S1 S2].
    destruct (R1 Hn W1 S1) as (A1 & B1 & C1 & N1). destruct (R2 Hn W2 S2) as (A2 & B2 & C2 & N2).
    split; [apply Forall_app; auto|]. split; [apply Forall_app; auto|]. split.
    - rewrite !map_app, !afold_app. apply af_cong; [lia | exact C1 | exact C2].
    - intros NE E. apply app_eq_nil in E as [E1 E2]. destruct l1; [apply (N2 NE E2) | apply N1; [discriminate | exact E1]].
  Qed.
  Lemma lrel_at k n l l' r : lrel k n l l' -> lrel k n (l ++ r) (l' ++ r).
  Proof. intros R. apply lrel_app; [exact R | apply lrel_refl]. Qed.
  Lemma lrel_pair k n a x b :
    (0 < n -> wf a = true -> wf x = true -> size a = n -> size x = n -> wf b = true /\ size b = n /\ cong n (ev b) (af k (ev a) (ev x))) ->
    lrel k n [a; x] [b].
  Proof.
    intros G Hn W S. inversion W as [|? ? Wa W']; inversion W' as [|? ? Wx _]; inversion S as [|? ? Sa S']; inversion S' as [|? ? Sx _]; subst.
    destruct (G Hn Wa Wx eq_refl Sx) as (Wb & Sb & C). cbn [map]. rewrite afold_1, afold_2. repeat split; try (constructor; auto); try discriminate. exact C.
  Qed.

  Lemma flatten_lrel op k n l : aop_of op = Some k -> lrel k n l (flatten op l).
  Proof.
    intros K. induction l as [|a l IH]; [apply lrel_refl|].
    change (lrel k n ([a] ++ l) ((match a with EOp op' xs => if is_assoc op && (op =? op')%string then xs else [a] | _ => [a] end) ++ flatten op l)).
    apply lrel_app; [|exact IH]. destruct a as [| | |op' xs| | | |]; try apply lrel_refl.
    rewrite (aop_assoc _ _ K). cbn [andb]. destruct (String.eqb_spec op op') as [<-|_]; [|apply lrel_refl].
    (* the operands of an inner node of the same operator take its place *)
    intros Hn W S. inversion W as [|? ? Wa _]; inversion S as [|? ? Sa _]; subst.
    destruct (wf_assoc_inv _ _ _ K Wa) as (m & Hm & NE & Wx & Sx). destruct (assoc_node op k m xs K Hm NE Wx Sx) as (_ & Sz & Ev).
    rewrite Sz. repeat split; auto. cbn [map]. rewrite afold_1, Ev. apply cong_sym, cong_wrap. lia.
  Qed.

  Lemma wrap_norm n r : wrap n (norm (maxcast (cls_of false n) (cls_of false n)) r) = wrap n r.
  Proof. unfold maxcast, cls_of. cbn [c_w]. destruct (n >? n); apply Zmod_mod. Qed.
  Lemma fold2_assoc op k n v1 v2 e : aop_of op = Some k -> fold2 op false n v1 false n v2 = Ok e ->
    e = EInt false n (wrap n (af k v1 v2)).
  Proof.
    intros K. unfold fold2. rewrite Z.eqb_refl. cbn [negb].
    unfold aop_of in K. destruct (opk_of op); try discriminate; inversion K; subst k; unfold binop_apply, exact; cbn [af];
      intros H; apply mk_int_ok in H; rewrite H, wrap_norm; reflexivity.
  Qed.

  Lemma fold_consts_lrel op k n : aop_of op = Some k -> forall fuel rl rl', fold_consts op fuel rl = Ok rl' -> lrel k n rl rl'.
  Proof.
    intros K. induction fuel as [|f IH]; intros rl rl' H; cbn [fold_consts] in H; [inversion H; apply lrel_refl|].
    destruct rl as [|[sg1 w1 v1| | | | | | |] [|[sg2 w2 v2| | | | | | |] rl]]; try (inversion H; apply lrel_refl).
    apply bind_ok in H as (o & F & H). eapply lrel_trans; [|exact (IH _ _ H)]. apply (lrel_at k n [_; _] [o]), lrel_pair. intros Hn W1 W2 S1 S2.
    destruct (wf_int_inv _ _ _ W1) as (-> & P1 & _ & E1). destruct (wf_int_inv _ _ _ W2) as (-> & _ & _ & E2). cbn [size] in *. subst w1 w2.
    apply (fold2_assoc op k n v1 v2 o K) in F. subst o. destruct (wf_wrapped_int n (af k v1 v2) P1) as (Wo & So & Eo).
    rewrite Eo, E1, E2. split; [exact Wo|]. split; [exact So|]. apply cong_wrap. lia.
  Qed.

  Lemma wf_neg_iff x : wf (EOp "-" [x]) = true <-> wf x = true.
  Proof. cbn. rewrite Z.eqb_refl, !andb_true_r. reflexivity. Qed.
  Lemma eqb_ev a b : expr_eqb a b = true -> ev a = ev b /\ size a = size b.
  Proof. intros H. split; [apply eval_eqb; assumption | apply size_eqb; assumption]. Qed.

  Lemma is_neg_of_ev x a : is_neg_of x a = true -> wf x = true -> ev x = wrap (size x) (- ev a) /\ size x = size a.
  Proof.
    unfold is_neg_of. destruct x as [| | |op' [|y [|? ?]]| | | |]; try discriminate. intros H W.
    apply andb_true_iff in H as [O E]. apply String.eqb_eq in O. subst op'. destruct (eqb_ev _ _ E) as [Ev Sz].
    apply (proj1 (wf_neg_iff y)) in W. destruct (wf_range y W) as [Py _]. rewrite ev_neg, size_op by lia. rewrite Ev, Sz. auto.
  Qed.
  Lemma cong_neg_l n a : 0 <= n -> cong n (wrap n (- a) + a) 0.
  Proof. intros Hn. replace 0 with (- a + a) by lia. apply cong_add; [lia | apply cong_wrap; lia | apply cong_refl]. Qed.

  Lemma dedup_rule_value op k ai x : aop_of op = Some k -> wf ai = true -> wf x = true -> size x = size ai ->
    match dedup_rule op ai x with
    | DKeep => True
    | DDel => af k (ev ai) (ev x) = ev ai
    | DZeroDel => cong (size ai) (af k (ev ai) (ev x)) 0
    end.
  Proof.
    intros K Wa Wx Sx. pose proof (wf_range ai Wa) as [Pa _]. unfold dedup_rule. unfold aop_of in K.
    destruct (opk_of op); try discriminate K; inversion K; subst k; cbn [af]; try exact I.
    - destruct (is_neg_of x ai) eqn:N1; [|destruct (is_neg_of ai x) eqn:N2; [|exact I]].
      + destruct (is_neg_of_ev _ _ N1 Wx) as [-> _]. rewrite Sx, Z.add_comm. apply cong_neg_l. lia.
      + destruct (is_neg_of_ev _ _ N2 Wa) as [-> _]. apply cong_neg_l. lia.
    - destruct (expr_eqb ai x) eqn:Q; [|exact I]. destruct (eqb_ev _ _ Q) as [<- _]. rewrite Z.lxor_nilpotent. apply cong_refl.
    - destruct (expr_eqb ai x) eqn:Q; [|exact I]. destruct (eqb_ev _ _ Q) as [<- _]. apply Z.land_diag.
    - destruct (expr_eqb ai x) eqn:Q; [|exact I]. destruct (eqb_ev _ _ Q) as [<- _]. apply Z.lor_diag.
  Qed.

  Lemma dedup_inner_lrel op k n : aop_of op = Some k -> forall rest ai p, dedup_inner op ai rest = Ok p -> lrel k n (ai :: rest) (fst p :: snd p).
  Proof.
    intros K. induction rest as [|x r IH]; intros ai p H; cbn [dedup_inner] in H; [inversion H; apply lrel_refl|].
    pose proof (dedup_rule_value op k ai x K) as R. destruct (dedup_rule op ai x).
    - apply bind_ok in H as (q & Q & H). inversion H; subst p. cbn [fst snd].
      eapply lrel_trans; [apply lrel_perm, perm_swap|]. eapply lrel_trans; [|apply lrel_perm, perm_swap].
      apply (lrel_app k n [x] [x]); [apply lrel_refl | exact (IH _ _ Q)].
    - eapply lrel_trans; [|exact (IH _ _ H)]. apply (lrel_at k n [ai; x] [ai]), lrel_pair. intros Hn Wa Wx Sa Sx.
      rewrite (R Wa Wx) by congruence. auto using cong_refl.
    - apply bind_ok in H as (z & M & H). apply mk_int_ok in M. subst z.
      eapply lrel_trans; [|exact (IH _ _ H)]. apply (lrel_at k n [ai; x] [_]), lrel_pair. intros Hn Wa Wx Sa Sx.
      destruct (wf_wrapped_int (size ai) 0 (proj1 (wf_bounds ai Wa))) as (Wz & Sz & Ez).
      rewrite Ez, wrap_0, <- Sa. split; [exact Wz|]. split; [exact Sz|]. apply cong_sym, R; congruence.
  Qed.

  Lemma dedup_outer_lrel op k n : aop_of op = Some k -> forall fuel args args', dedup_outer op fuel args = Ok args' -> lrel k n args args'.
  Proof.
    intros K. induction fuel as [|f IH]; intros args args' H; cbn [dedup_outer] in H; [inversion H; apply lrel_refl|].
    destruct args as [|a [|b rest]]; try (inversion H; apply lrel_refl).
    apply bind_ok in H as (p & I & H). apply bind_ok in H as (r' & O & H). inversion H; subst args'.
    eapply lrel_trans; [exact (dedup_inner_lrel op k n K _ _ _ I)|]. apply (lrel_app k n [_] [_]); [apply lrel_refl | exact (IH _ _ O)].
  Qed.

  (** the rule A op 0 => A of simp_op, its per-operator switch (on for + - | ^ << >> <<< >>>) as a parameter *)
  Definition zero_drop (flag : bool) (args : list expr) : list expr :=
    if flag && (1 <? Z.of_nat (List.length args)) && match last_opt args with Some l => is_int_val l 0 | None => false end
    then removelast args else args.
  Lemma last_opt_app (l : list expr) x : last_opt l = Some x -> l = removelast l ++ [x].
  Proof.
    unfold last_opt. intros H. destruct (rev l) as [|y r] eqn:R; [discriminate|]. inversion H; subst y.
    assert (E : l = rev r ++ [x]) by (rewrite <- (rev_involutive l), R; reflexivity). rewrite E at 2. rewrite removelast_last. exact E.
  Qed.
  Lemma zero_right k v : (k = AAdd \/ k = AOr \/ k = AXor) -> af k v 0 = v.
  Proof. intros [->|[->| ->]]; simpl; [lia | apply Z.lor_0_r | apply Z.lxor_0_r]. Qed.
  Lemma zero_drop_lrel k n flag l : (flag = true -> k = AAdd \/ k = AOr \/ k = AXor) -> lrel k n l (zero_drop flag l).
  Proof.
    intros Hk. unfold zero_drop. destruct flag; [|apply lrel_refl]. cbn [andb]. destruct (Z.ltb_spec 1 (Z.of_nat (List.length l))) as [L1|_]; [|apply lrel_refl]. cbn [andb].
    destruct (last_opt l) as [x|] eqn:LO; [|apply lrel_refl]. destruct (is_int_val x 0) eqn:IZ; [|apply lrel_refl].
    apply last_opt_app in LO. revert LO L1. generalize (removelast l). intros l0 -> L1 Hn W S.
    apply Forall_app in W as [W0 Wx]. apply Forall_app in S as [S0 _]. inversion Wx as [|? ? Wx0 _]; subst.
    repeat split; auto.
    - rewrite map_app, afold_app. cbn [map]. rewrite afold_1, (is_int_val_ev x 0 IZ Wx0), (zero_right k _ (Hk eq_refl)). apply cong_refl.
    - intros _ E. subst l0. cbn in L1. lia.
  Qed.

  (** Here and below a [.._pipeline] or [.._rules] definition writes out what simp_op does on one kind of operator, and the [.._unfold]
      lemma after it is the tie.  This one: + * ^ & |, as a function of the operator string and the switch of the zero rule. *)
  Definition assoc_pipeline (op : string) (flag : bool) (eargs : list expr) : res expr :=
    let args1 := canonize_expr_list (flatten op eargs) in
    do rl <- fold_consts op (List.length args1) (rev args1);
    match zero_drop flag (rev rl) with [a0] => Ok a0 | args3 => do a2 <- dedup_outer op (List.length args3) args3; Ok (EOp op a2) end.
  Definition zero_drops (k : aop) : bool := match k with AAdd | AXor | AOr => true | AMul | AAnd => false end.
  Lemma simp_op_unfold k eargs : simp_op (aop_str k) eargs = assoc_pipeline (aop_str k) (zero_drops k) eargs.
  Proof.
    (* per operator: simp_op is specialised to the literal; then both sides branch alike on the folded list and on what the zero rule leaves *)
    destruct k; unfold assoc_pipeline, zero_drop; cbn [aop_str zero_drops]; simp_op_lit; cbn [andb].
    all: destruct (fold_consts _ _ _) as [rl| |]; cbn [bind]; [|reflexivity|reflexivity].
    all: match goal with |- match ?l with _ => _ end = _ => destruct l as [|? [|? ?]]; reflexivity end.
  Qed.

  Theorem simp_op_assoc op k eargs e' : aop_of op = Some k -> wf (EOp op eargs) = true -> simp_op op eargs = Ok e' -> good (EOp op eargs) e'.
  Proof.
    intros K W H. destruct (wf_assoc_inv _ _ _ K W) as (n & Hn & NE & Wl & Sl).
    rewrite (aop_of_str op k K), simp_op_unfold, <- (aop_of_str op k K) in H. unfold assoc_pipeline in H.
    apply bind_ok in H as (rl & F & H). set (args3 := zero_drop (zero_drops k) (rev rl)) in H.
    assert (R : lrel k n eargs args3).
    { eapply lrel_trans; [apply (flatten_lrel op k n _ K)|].
      eapply lrel_trans; [apply lrel_perm, Permutation_sym, (sort_by_perm key_expr)|].
      eapply lrel_trans; [apply lrel_perm, Permutation_rev|].
      eapply lrel_trans; [exact (fold_consts_lrel op k n K _ _ _ F)|].
      eapply lrel_trans; [apply lrel_perm, Permutation_rev|].
      apply zero_drop_lrel. destruct k; intros; try discriminate; auto. }
    clearbody args3.
    assert (Node : forall a2, lrel k n args3 a2 -> good (EOp op eargs) (EOp op a2)).
    { intros a2 R2. exact (lrel_node op k n eargs a2 K Hn NE Wl Sl (lrel_trans _ _ _ _ _ R R2)). }
    assert (Gen : (do a2 <- dedup_outer op (List.length args3) args3; Ok (EOp op a2)) = Ok e' -> good (EOp op eargs) e').
    { intros HG. apply bind_ok in HG as (a2 & D & HG). inversion HG; subst e'. apply Node. exact (dedup_outer_lrel op k n K _ _ _ D). }
    destruct args3 as [|x [|y t]]; [exact (Gen H) | | exact (Gen H)].
    (* a single operand is returned as it is *)
    inversion H; subst e'. destruct (R Hn Wl Sl) as (W3 & _). inversion W3 as [|? ? Wx _]; subst.
    eapply good_trans; [exact (Node [x] (lrel_refl _ _ _))|]. apply good_operand; [exact Wx | apply size_op1|].
    rewrite (ev_assoc op k x [] K) by (apply wf_range, Wx). cbn [map]. rewrite afold_1. reflexivity.
  Qed.

  Lemma flatten_nonassoc op l : is_assoc op = false -> flatten op l = l.
  Proof. intros H. unfold flatten. induction l as [|a l IH]; [reflexivity|]. cbn [flat_map]. rewrite IH, H. destruct a; reflexivity. Qed.

  Definition sub_pipeline (args : list expr) : res expr :=
    match args with
    | [a] => match a with
             | EOp op' xs => let plus := if (op' =? "+")%string then Ok (EOp "+" (map neg xs)) else Ok (EOp "-" args) in
                             match xs with [x] => if (op' =? "-")%string then Ok x else plus | _ => plus end
             | EInt sg w v => Ok (EInt sg w (norm (cls_of sg w) (- v)))
             | _ => Ok (EOp "-" args)
             end
    | [a; b] => if is_int_val b 0 then Ok a else Ok (EOp "+" [a; neg b])
    | _ => Err EValueError
    end.
  Lemma simp_sub_unfold args : List.length args = 1%nat \/ List.length args = 2%nat -> simp_op "-" args = sub_pipeline args.
  Proof.
    intros L. unfold sub_pipeline. simp_op_lit. rewrite flatten_nonassoc by reflexivity. destruct args as [|a [|b [|c t]]]; simpl in L; try lia.
    - destruct a as [sg w v| | |op' [|x [|x2 xs]]| | | |]; unfold last_opt; cbn;
        repeat match goal with |- context [if ?c then _ else _] => destruct c end; reflexivity.
    - unfold last_opt. cbn. destruct (is_int_val b 0); destruct a as [| | |? [|? [|? ?]]| | | |]; reflexivity.
  Qed.

  Lemma wf_sub_inv l : wf (EOp "-" l) = true ->
    (exists a, l = [a] /\ wf a = true) \/ (exists a b, l = [a; b] /\ wf a = true /\ wf b = true /\ size b = size a).
  Proof.
    destruct l as [|a [|b [|c t]]]; cbn; rewrite ?Z.eqb_refl, ?andb_true_r, ?andb_false_r, ?andb_true_iff, ?Z.eqb_eq; try discriminate.
    - intros Wa. left. eauto.
    - intros ((Wa & Wb) & _ & Sb). right. eauto 8.
  Qed.
  Lemma neg_good x : wf x = true -> wf (neg x) = true /\ size (neg x) = size x /\ ev (neg x) = wrap (size x) (- ev x).
  Proof.
    intros W. destruct (wf_range x W) as [P _]. split; [apply wf_neg_iff; exact W|]. split; [apply size_op; lia | apply ev_neg; assumption].
  Qed.

  Lemma sum_good n a d : 0 < n -> wf a = true -> wf d = true -> size a = n -> size d = n ->
    wf (EOp "+" [a; d]) = true /\ size (EOp "+" [a; d]) = n /\ ev (EOp "+" [a; d]) = wrap n (ev a + ev d).
  Proof.
    intros Hn Wa Wd Sa Sd. destruct (assoc_node "+" AAdd n [a; d] eq_refl Hn ltac:(discriminate)) as (A & B & C); [repeat constructor; assumption..|].
    cbn [map] in C. rewrite afold_2 in C. auto.
  Qed.
  Lemma sum_of_negs n xs : 0 < n -> all_wf xs -> all_size n xs ->
    all_wf (map neg xs) /\ all_size n (map neg xs) /\ cong n (afold AAdd (map ev (map neg xs))) (- afold AAdd (map ev xs)).
  Proof.
    intros Hn. induction xs as [|x xs IH]; intros W S; [repeat split; constructor|].
    inversion W as [|? ? Wx W']; inversion S as [|? ? Sx S']; subst. destruct (IH W' S') as (A & B & C). destruct (neg_good x Wx) as (Wn & Sn & En).
    repeat split; try (constructor; assumption).
    cbn [map]. rewrite !afold_cons, En. cbn [af]. rewrite Z.opp_add_distr. apply cong_add; [lia | apply cong_wrap; lia | assumption].
  Qed.
  (** - (A + B + ...) => -A + -B ... *)
  Lemma neg_of_plus xs : wf (EOp "+" xs) = true -> good (EOp "-" [EOp "+" xs]) (EOp "+" (map neg xs)).
  Proof.
    intros W. destruct (wf_assoc_inv "+" AAdd xs eq_refl W) as (n & Hn & NE & Wx & Sx).
    destruct (assoc_node "+" AAdd n xs eq_refl Hn NE Wx Sx) as (_ & Sp & Ep). destruct (sum_of_negs n xs Hn Wx Sx) as (A & B & C).
    destruct (assoc_node "+" AAdd n (map neg xs) eq_refl Hn ltac:(destruct xs; [contradiction | discriminate]) A B) as (Wn & Sn & En).
    destruct (neg_good _ W) as (_ & S1 & E1). unfold neg in *.
    split; [exact Wn|]. split; [congruence|]. rewrite En, E1, Sp, Ep. apply wrap_cong. eapply cong_trans; [exact C|]. apply cong_opp; [lia | apply cong_sym, cong_wrap; lia].
  Qed.
  Lemma neg_neg x : wf x = true -> good (EOp "-" [EOp "-" [x]]) x.
  Proof.
    intros W. destruct (wf_range x W) as [P R]. destruct (neg_good x W) as (W1 & S1 & E1). destruct (neg_good _ W1) as (_ & S2 & E2). unfold neg in *.
    apply good_operand; [exact W | congruence|]. rewrite E2, S1, E1. apply wrap_cong.
    eapply cong_trans; [apply cong_opp; [lia | apply cong_wrap; lia]|]. rewrite Z.opp_involutive. apply cong_refl.
  Qed.

  Theorem simp_op_sub eargs e' : wf (EOp "-" eargs) = true -> simp_op "-" eargs = Ok e' -> good (EOp "-" eargs) e'.
  Proof.
    intros W H. pose proof (good_keep _ e' W) as Keep.
    destruct (wf_sub_inv _ W) as [(a & -> & Wa)|(a & b & -> & Wa & Wb & Sb)]; rewrite simp_sub_unfold in H by (cbn; auto); unfold sub_pipeline in H.
    - destruct (neg_good a Wa) as (_ & Sn & En). unfold neg in *.
      destruct a as [sg w v| | |op' xs| | | |]; try exact (Keep H).
      + inversion H; subst e'. destruct (wf_int_inv _ _ _ Wa) as (-> & Pw & _ & E).
        change (norm (cls_of false w) (- v)) with (wrap w (- v)). apply good_int; [exact Pw | exact Sn | rewrite En, E; reflexivity].
      + assert (Plus : (if (op' =? "+")%string then Ok (EOp "+" (map neg xs)) else Ok (EOp "-" [EOp op' xs])) = Ok e' -> good (EOp "-" [EOp op' xs]) e').
        { destruct (String.eqb_spec op' "+") as [->|_]; intros Q; [inversion Q; apply neg_of_plus; exact Wa | exact (Keep Q)]. }
        destruct xs as [|x [|? ?]]; try exact (Plus H). destruct (String.eqb_spec op' "-") as [->|_]; [|exact (Plus H)].
        inversion H; subst e'. apply neg_neg. apply wf_neg_iff. exact Wa.
    - destruct (wf_range a Wa) as [Pa Ra].
      assert (Ev : ev (EOp "-" [a; b]) = wrap (size a) (ev a - ev b)) by (apply ev_op; lia).
      destruct (is_int_val b 0) eqn:IZ; inversion H; subst e'.
      + apply good_operand; [exact Wa | apply size_op; lia | rewrite Ev, (is_int_val_ev b 0 IZ Wb), Z.sub_0_r; reflexivity].
      + destruct (neg_good b Wb) as (Wn & Sn & En).
        destruct (sum_good (size a) a (neg b) Pa Wa Wn eq_refl ltac:(congruence)) as (A & B & C).
        split; [exact A|]. split; [rewrite B; symmetry; apply size_op; lia|]. rewrite C, Ev, En, Sb. apply wrap_cong.
        apply cong_add; [lia | apply cong_refl | apply cong_wrap; lia].
  Qed.

  Definition is_plain (op : string) : bool := match opk_of op with OXor | OAdd | OOr | OAnd => false | _ => true end.
  Lemma dedup_rule_plain op ai aj : is_plain op = true -> dedup_rule op ai aj = DKeep.
  Proof. unfold is_plain, dedup_rule. destruct (opk_of op); try discriminate; reflexivity. Qed.
  Lemma dedup_inner_plain op : is_plain op = true -> forall rest ai, dedup_inner op ai rest = Ok (ai, rest).
  Proof.
    intros S. induction rest as [|x r IH]; intros ai; simpl; [reflexivity|]. rewrite (dedup_rule_plain op ai x S), IH. reflexivity.
  Qed.
  Lemma dedup_outer_plain op : is_plain op = true -> forall fuel args, dedup_outer op fuel args = Ok args.
  Proof.
    intros S. induction fuel as [|f IH]; intros args; simpl; [reflexivity|].
    destruct args as [|a [|b r]]; try reflexivity. rewrite (dedup_inner_plain op S). cbn [bind fst snd]. rewrite IH. reflexivity.
  Qed.

  Lemma fold_consts_1 op o : fold_consts op 1 [o] = Ok [o]. Proof. destruct o; reflexivity. Qed.
  Lemma fold_consts_2 op c a : fold_consts op 2 [c; a] =
    match c, a with EInt sg1 w1 v1, EInt sg2 w2 v2 => do o <- fold2 op sg1 w1 v1 sg2 w2 v2; Ok [o] | _, _ => Ok [c; a] end.
  Proof.
    destruct c; try reflexivity. destruct a; try reflexivity. cbn [fold_consts].
    destruct (fold2 op sg w v sg0 w0 v0) as [o| |]; try reflexivity. cbn [bind]. destruct o; reflexivity.
  Qed.

  (** what _expr_simp does on a value and a count: << and >> fold two constants and drop a zero count; >> has the rule
      (X & m) >> c = 0 when m < 2^c; a>> has no rule *)
  Definition mask_rule (op2 : string) (hit : Z -> bool) (a : expr) (keep : res expr) : res expr :=
    match a with
    | EOp o ys =>
        if (o =? op2)%string then
          match ys with
          | _ :: EInt _ _ vm :: _ => if hit vm then mk_int (size a) 0 else keep
          | _ :: _ :: _ => keep
          | _ => Err EIndexError
          end
        else keep
    | _ => keep
    end.
  Definition shr_mask (op : string) (a c : expr) : res expr :=
    match c with EInt _ _ vc => mask_rule "&" (fun vm => vm <? 2 ^ vc) a (Ok (EOp op [a; c])) | _ => Ok (EOp op [a; c]) end.
  Definition shift_rules (op : string) (tail : expr -> expr -> res expr) (a c : expr) : res expr :=
    match c, a with
    | EInt sg1 w1 v1, EInt sg2 w2 v2 => fold2 op sg1 w1 v1 sg2 w2 v2
    | _, _ => if is_int_val c 0 then Ok a else tail a c
    end.
  Lemma simp_shift_unfold op a c : is_shift op = true -> simp_op op [a; c] =
    match opk_of op with
    | OShl => shift_rules op (fun a c => Ok (EOp op [a; c])) a c
    | OShr => shift_rules op (shr_mask op) a c
    | _ => Ok (EOp op [a; c])
    end.
  Proof.
    intros S. unfold is_shift in S. pose proof (opk_name op) as N.
    destruct (opk_of op); try discriminate S; rewrite N by discriminate; clear N S; cbn [opk_str];
      unfold shift_rules, shr_mask; simp_op_lit; rewrite flatten_nonassoc by reflexivity; cbn [rev app List.length].
    (* a>>: no rule fires *)
    3: { cbn [bind rev app]. unfold last_opt. cbn [rev app andb]. rewrite dedup_outer_plain by reflexivity. reflexivity. }
    (* << and >>: both sides branch alike, on the count and, under a constant count, on the value *)
    all: rewrite fold_consts_2; destruct c as [sg1 w1 v1| | | | | | |]; [destruct a as [sg2 w2 v2| | | | | | |]|..].
    (* two constants: the fold decides *)
    all: try (destruct (fold2 _ sg1 w1 v1 sg2 w2 v2); reflexivity).
    (* otherwise the A op 0 rule looks at the count, and a constant count is compared with 0 *)
    all: cbn [bind rev app]; unfold last_opt; cbn [rev app List.length Z.of_nat Pos.of_succ_nat Pos.succ]; change (1 <? 2) with true; cbn [andb is_int_val].
    all: try (destruct (v1 =? 0)); cbn [removelast List.length Nat.eqb negb]; try rewrite dedup_outer_plain by reflexivity; try reflexivity.
  Qed.

  Definition shv (op : string) : Z -> Z -> Z := match opk_of op with OShl => Z.shiftl | _ => Z.shiftr end.
  Lemma shv_0 op x : shv op x 0 = x.
  Proof. unfold shv. destruct (opk_of op); first [apply Z.shiftl_0_r | apply Z.shiftr_0_r]. Qed.
  Lemma ev_shift op a c : opk_of op = OShl \/ opk_of op = OShr -> 0 < size a -> 0 <= ev a < 2 ^ size a -> 0 <= ev c ->
    ev (EOp op [a; c]) = wrap (size a) (shv op (ev a) (ev c)).
  Proof.
    intros K Pa Ra Pc. rewrite ev_op by lia. cbn [map]. unfold eval_op, shv. destruct K as [-> | ->].
    - apply shiftl_sat; lia.
    - rewrite (wrap_small (size a) (ev a) Ra), (shiftr_sat (size a)) by lia. reflexivity.
  Qed.
  Lemma fold2_shift op w v1 v2 e : opk_of op = OShl \/ opk_of op = OShr -> 0 <= v1 -> fold2 op false w v1 false w v2 = Ok e ->
    e = EInt false w (wrap w (shv op v2 v1)).
  Proof.
    intros K Hv. unfold fold2, shv. rewrite Z.eqb_refl. cbn [negb].
    assert (Nn : (v1 <? 0) = false) by (apply Z.ltb_ge; lia).
    destruct K as [-> | ->]; unfold binop_apply, exact; rewrite Nn; intros H; apply mk_int_ok in H; rewrite H, wrap_norm; reflexivity.
  Qed.

  Lemma wf_shift_inv op l : is_shift op = true -> wf (EOp op l) = true -> exists a c, l = [a; c] /\ wf a = true /\ wf c = true.
  Proof.
    intros S W. apply wf_op_iff in W as [Wl O]. destruct (op_ok_inv _ _ O) as (a & r & -> & _ & Ao).
    unfold args_ok in Ao. rewrite S in Ao. destruct r as [|c [|? ?]]; try discriminate.
    inversion Wl as [|? ? Wa Wl']; inversion Wl' as [|? ? Wc _]; subst. eauto.
  Qed.

  Lemma shift_rules_good op tail a c e' : opk_of op = OShl \/ opk_of op = OShr -> wf a = true -> wf c = true ->
    (tail a c = Ok e' -> good (EOp op [a; c]) e') -> shift_rules op tail a c = Ok e' -> good (EOp op [a; c]) e'.
  Proof.
    intros K Wa Wc T H.
    destruct (wf_range a Wa) as [Pa Ra]. destruct (wf_range c Wc) as [_ Rc].
    assert (Sz : size (EOp op [a; c]) = size a) by (apply size_op; lia).
    pose proof (ev_shift op a c K Pa Ra (proj1 Rc)) as Ev. unfold shift_rules in H.
    assert (Rest : (if is_int_val c 0 then Ok a else tail a c) = Ok e' -> good (EOp op [a; c]) e').
    { destruct (is_int_val c 0) eqn:Z0; [|exact T]. intros Q. inversion Q; subst e'.
      apply good_operand; [exact Wa | exact Sz | rewrite Ev, (is_int_val_ev c 0 Z0 Wc), shv_0; reflexivity]. }
    destruct c as [sg1 w1 v1| | | | | | |]; try exact (Rest H). destruct a as [sg2 w2 v2| | | | | | |]; try exact (Rest H).
    destruct (wf_int_inv _ _ _ Wc) as (-> & _ & Rv1 & E1). destruct (wf_int_inv _ _ _ Wa) as (-> & Pw2 & _ & E2).
    assert (Ew : w1 = w2) by (unfold fold2 in H; destruct (Z.eqb_spec w1 w2); [assumption | discriminate]). subst w2.
    apply (fold2_shift op w1 v1 v2 e' K (proj1 Rv1)) in H. subst e'. apply good_int; [exact Pw2 | exact Sz | rewrite Ev, E1, E2; reflexivity].
  Qed.

  (** a bit that is clear in one operand of an & is clear in the result; a bit that is set in one operand of an | is set *)
  Lemma afold_absorbing_bit k b vs m i : k = AAnd /\ b = false \/ k = AOr /\ b = true ->
    In m vs -> Z.testbit m i = b -> Z.testbit (afold k vs) i = b.
  Proof.
    intros Hk. induction vs as [|v vs IH]; intros I Hm; [contradiction|]. rewrite afold_cons.
    assert (T : Z.testbit v i = b \/ Z.testbit (afold k vs) i = b) by (destruct I as [->|I]; auto).
    destruct Hk as [[-> ->]|[-> ->]]; cbn [af]; [rewrite Z.land_spec; apply andb_false_iff | rewrite Z.lor_spec; apply orb_true_iff]; exact T.
  Qed.
  Lemma mask_node op k y0 sgm wm vm t : aop_of op = Some k -> wf (EOp op (y0 :: EInt sgm wm vm :: t)) = true ->
    exists n, 0 < n /\ 0 <= vm < 2 ^ n /\ ev (EOp op (y0 :: EInt sgm wm vm :: t)) = wrap n (afold k (ev y0 :: vm :: map ev t)).
  Proof.
    intros K W. destruct (wf_assoc_inv _ _ _ K W) as (n & Hn & NE & Wl & Sl). destruct (assoc_node op k n _ K Hn NE Wl Sl) as (_ & _ & E).
    inversion Wl as [|? ? _ Wl1]; inversion Wl1 as [|? ? Wm _]; inversion Sl as [|? ? _ Sl1]; inversion Sl1 as [|? ? Sm _]; subst.
    destruct (wf_int_inv _ _ _ Wm) as (_ & _ & Rm & Em). cbn [map] in E. rewrite Em in E. exists wm. auto.
  Qed.

  (** the `(X & m) >> c` rule: the bits of the masked value from c upwards are clear *)
  Lemma and_mask_shr y0 sgm wm vm t vc : wf (EOp "&" (y0 :: EInt sgm wm vm :: t)) = true -> 0 <= vc -> vm < 2 ^ vc ->
    Z.shiftr (ev (EOp "&" (y0 :: EInt sgm wm vm :: t))) vc = 0.
  Proof.
    intros W Hc Hm. destruct (mask_node "&" AAnd _ _ _ _ _ eq_refl W) as (n & Hn & Rm & ->).
    apply Z.bits_inj'. intros i Hi. rewrite Z.shiftr_spec, Z.bits_0, wrap_bits by lia.
    rewrite (afold_absorbing_bit AAnd false _ vm (i + vc)); [apply andb_false_r | auto | right; left; reflexivity | apply (bits_above vm vc); lia].
  Qed.
  (** the shape test of the two mask rules: when [a] is X op2 m ... with a constant m that [hit]s, the node [e] over [a] is 0 *)
  Lemma mask_rule_good op2 hit a e e' : wf e = true -> wf a = true -> size e = size a ->
    (forall y0 sgm wm vm t, a = EOp op2 (y0 :: EInt sgm wm vm :: t) -> hit vm = true -> ev e = 0) ->
    mask_rule op2 hit a (Ok e) = Ok e' -> good e e'.
  Proof.
    intros W Wa S Hit H. pose proof (good_keep _ e' W) as Keep. unfold mask_rule in H.
    destruct a as [| | |o ys| | | |]; try exact (Keep H). destruct (String.eqb_spec o op2) as [->|_]; [|exact (Keep H)].
    destruct ys as [|y0 [|[sgm wm vm| | | | | | |] t]]; try discriminate H; try exact (Keep H).
    destruct (hit vm) eqn:Hv; [|exact (Keep H)]. apply mk_int_ok in H. subst e'.
    apply good_int; [apply (wf_bounds _ Wa) | exact S | rewrite wrap_0; exact (Hit _ _ _ _ _ eq_refl Hv)].
  Qed.
  Lemma shr_mask_good op a c e' : opk_of op = OShr -> wf (EOp op [a; c]) = true -> wf a = true -> wf c = true -> shr_mask op a c = Ok e' -> good (EOp op [a; c]) e'.
  Proof.
    intros Ek W Wa Wc H. unfold shr_mask in H. destruct c as [sgc wc vc| | | | | | |]; try exact (good_keep _ _ W H).
    destruct (wf_range _ Wa) as [Pa Ra]. destruct (wf_int_inv _ _ _ Wc) as (_ & _ & Rvc & Evc).
    apply (mask_rule_good "&" _ a _ e' W Wa) in H; [exact H | apply size_op; lia|].
    intros y0 sgm wm vm t -> Lt. apply Z.ltb_lt in Lt.
    rewrite (ev_shift op _ _ (or_intror Ek) Pa Ra) by (rewrite Evc; lia). unfold shv. rewrite Ek, Evc, (and_mask_shr y0 sgm wm vm t vc Wa (proj1 Rvc) Lt). apply wrap_0.
  Qed.

  Theorem simp_op_shift op eargs e' : is_shift op = true -> wf (EOp op eargs) = true -> simp_op op eargs = Ok e' -> good (EOp op eargs) e'.
  Proof.
    intros S W H. destruct (wf_shift_inv _ _ S W) as (a & c & -> & Wa & Wc). rewrite simp_shift_unfold in H by exact S.
    unfold is_shift in S. destruct (opk_of op) eqn:Ek; try discriminate S.
    - apply (shift_rules_good op _ a c e' (or_introl Ek) Wa Wc) in H; [exact H | apply good_keep, W].
    - apply (shift_rules_good op _ a c e' (or_intror Ek) Wa Wc) in H; [exact H | exact (shr_mask_good op a c e' Ek W Wa Wc)].
    - exact (good_keep _ _ W H).
  Qed.

  Definition parity_pipeline (a : expr) : res expr :=
    match a with EInt _ _ v => mk_int (size (EOp "parity" [a])) (parity_val v) | _ => Ok (EOp "parity" [a]) end.
  Lemma simp_parity_unfold a : simp_op "parity" [a] = parity_pipeline a.
  Proof.
    unfold parity_pipeline. simp_op_lit. rewrite flatten_nonassoc by reflexivity. cbn [bind andb List.length Nat.eqb negb].
    rewrite dedup_outer_plain by reflexivity. cbn [bind]. destruct a; reflexivity.
  Qed.
  Theorem simp_op_parity eargs e' : wf (EOp "parity" eargs) = true -> simp_op "parity" eargs = Ok e' -> good (EOp "parity" eargs) e'.
  Proof.
    intros W H. pose proof W as W'. apply wf_op_iff in W' as [Wl O]. unfold op_ok in O. change (opk_of "parity") with OParity in O.
    destruct eargs as [|a [|? ?]]; [discriminate O| |cbn [List.length Nat.eqb] in O; rewrite andb_false_r in O; discriminate O].
    inversion Wl as [|? ? Wa _]; subst.
    rewrite simp_parity_unfold in H. unfold parity_pipeline in H. destruct a as [sg w v| | | | | | |]; try exact (good_keep _ _ W H).
    apply mk_int_ok in H. subst e'.
    destruct (wf_int_inv _ _ _ Wa) as (-> & Pw & _ & Ev). rewrite size_op1. apply good_int; [exact Pw | apply size_op1|].
    rewrite ev_op1, Ev. reflexivity.
  Qed.

  Definition eq_pipeline (a0 a1 : expr) : res expr :=
    match a0, a1 with
    | EInt _ _ v0, EInt _ _ v1 => mk_int (size a0) (if v0 =? v1 then 1 else 0)
    | _, EInt _ _ v1 => if v1 =? 0 then mask_rule "|" (fun vm => negb (vm =? 0)) a0 (Ok (EOp "==" [a0; a1])) else Ok (EOp "==" [a0; a1])
    | _, _ => Ok (EOp "==" [a0; a1])
    end.
  Lemma simp_eq_unfold a0 a1 : simp_op "==" [a0; a1] = eq_pipeline a0 a1.
  Proof.
    unfold eq_pipeline. simp_op_lit. rewrite flatten_nonassoc by reflexivity. cbn [bind andb List.length Nat.eqb negb].
    rewrite dedup_outer_plain by reflexivity. cbn [bind]. reflexivity.
  Qed.
  Lemma wf_eq_inv l : wf (EOp "==" l) = true -> exists a0 a1, l = [a0; a1] /\ wf a0 = true /\ wf a1 = true /\ size a1 = size a0.
  Proof.
    destruct l as [|a0 [|a1 [|? ?]]]; cbn; rewrite ?Z.eqb_refl, ?andb_true_r, ?andb_false_r, ?andb_true_iff, ?Z.eqb_eq; try discriminate.
    intros ((W0 & W1) & _ & S1). eauto 8.
  Qed.
  (** the highest set bit of m is set in X | m *)
  Lemma or_mask_nonzero y0 sgm wm vm t : wf (EOp "|" (y0 :: EInt sgm wm vm :: t)) = true -> vm <> 0 -> ev (EOp "|" (y0 :: EInt sgm wm vm :: t)) <> 0.
  Proof.
    intros W Nz Q. destruct (mask_node "|" AOr _ _ _ _ _ eq_refl W) as (n & Hn & Rm & E). rewrite E in Q. clear E.
    assert (B : Z.testbit (wrap n (afold AOr (ev y0 :: vm :: map ev t))) (Z.log2 vm) = true).
    { rewrite wrap_bits by (try lia; apply Z.log2_nonneg). rewrite (afold_absorbing_bit AOr true _ vm); [|auto | right; left; reflexivity | apply Z.bit_log2; lia].
      rewrite andb_true_r. apply Z.ltb_lt, Z.log2_lt_pow2; lia. }
    rewrite Q, Z.bits_0 in B. discriminate.
  Qed.
  Theorem simp_op_eq eargs e' : wf (EOp "==" eargs) = true -> simp_op "==" eargs = Ok e' -> good (EOp "==" eargs) e'.
  Proof.
    intros W H. pose proof (good_keep _ e' W) as Keep. destruct (wf_eq_inv _ W) as (a0 & a1 & -> & W0 & W1 & S1).
    destruct (wf_range a0 W0) as [P0 _].
    assert (Sz : size (EOp "==" [a0; a1]) = size a0) by (apply size_op; lia).
    assert (Ev : ev (EOp "==" [a0; a1]) = if ev a0 =? ev a1 then wrap (size a0) 1 else 0) by (rewrite ev_op by lia; reflexivity).
    rewrite simp_eq_unfold in H. unfold eq_pipeline in H.
    destruct a1 as [sg1 w1 v1| | | | | | |]; try (destruct a0; exact (Keep H)).
    destruct (wf_int_inv _ _ _ W1) as (_ & _ & _ & E1). destruct (is_int a0) eqn:I0.
    - destruct a0 as [sg0 w0 v0| | | | | | |]; try discriminate I0. destruct (wf_int_inv _ _ _ W0) as (_ & Pw & _ & E0).
      apply mk_int_ok in H. subst e'. apply good_int; [exact Pw | exact Sz|].
      rewrite Ev, E0, E1. destruct (v0 =? v1); [reflexivity | symmetry; apply wrap_0].
    - assert (M : (if v1 =? 0 then mask_rule "|" (fun vm => negb (vm =? 0)) a0 (Ok (EOp "==" [a0; EInt sg1 w1 v1])) else Ok (EOp "==" [a0; EInt sg1 w1 v1])) = Ok e')
        by (destruct a0; try discriminate I0; exact H).
      destruct (Z.eqb_spec v1 0) as [->|_]; [|exact (Keep M)].
      apply (mask_rule_good "|" _ a0 _ e' W W0 Sz) in M; [exact M|]. intros y0 sgm wm vm t -> Nz. apply negb_true_iff, Z.eqb_neq in Nz.
      rewrite Ev, E1. destruct (Z.eqb_spec (ev (EOp "|" (y0 :: EInt sgm wm vm :: t))) 0) as [Q|_]; [|reflexivity].
      exfalso. exact (or_mask_nonzero y0 sgm wm vm t W0 Nz Q).
  Qed.

  (** rotations: count 0, count = width, and two rotations in a row, merged by adding or subtracting the counts modulo 2^8 *)
  Definition rot_pipeline (op : string) (a c : expr) : res expr :=
    if is_int_val c 0 then Ok a else
    if is_int c && is_int_val c (size a) then Ok a else
    match a with
    | EOp op2 ys =>
        if is_rot op2 then
          match ys with
          | x :: c2 :: _ => if (op =? op2)%string then Ok (EOp op [x; EOp "+" [c2; c]]) else Ok (EOp op2 [x; EOp "+" [c2; neg c]])
          | _ => Err EIndexError
          end
        else Ok (EOp op [a; c])
    | _ => Ok (EOp op [a; c])
    end.
  Lemma simp_rot_unfold op a c : is_rot op = true -> simp_op op [a; c] = rot_pipeline op a c.
  Proof.
    unfold is_rot. intros S. pose proof (opk_name op) as N.
    destruct (opk_of op); try discriminate; rewrite N by discriminate; clear N; cbn [opk_str]; unfold rot_pipeline; simp_op_lit;
      rewrite flatten_nonassoc by reflexivity; cbn [bind rev app List.length]; unfold last_opt; cbn [rev app andb];
      change (1 <? Z.of_nat 2) with true; cbn [andb].
    (* <<< and >>> alike; both sides branch on: a zero count, a count equal to the width, the shape of the value *)
    all: destruct (is_int_val c 0); cbn [removelast List.length Nat.eqb negb]; [reflexivity|].
    all: rewrite dedup_outer_plain by reflexivity; cbn [bind]; destruct (is_int c && is_int_val c (size a)); [reflexivity|].
    all: destruct a as [| | |op2 [|x [|c2 t]]| | | |]; try reflexivity; destruct (is_rot op2); reflexivity.
  Qed.

  Lemma ev_rot op a c : is_rot op = true -> 0 < size a -> 0 <= ev a < 2 ^ size a ->
    ev (EOp op [a; c]) = match opk_of op with ORol => rol (size a) (ev a) (ev c) | _ => ror (size a) (ev a) (ev c) end.
  Proof.
    intros S Pa Ra. rewrite ev_op by lia. cbn [map]. unfold eval_op, is_rot in *.
    destruct (opk_of op); try discriminate; replace (size a =? 0) with false by (symmetry; apply Z.eqb_neq; lia); rewrite (wrap_small (size a) (ev a) Ra); reflexivity.
  Qed.
  Lemma std8_divides n : (n =? 8) || (n =? 16) || (n =? 32) || (n =? 64) = true -> 0 < n /\ (n | 2 ^ 8).
  Proof.
    rewrite !orb_true_iff, !Z.eqb_eq. intros [[[-> | ->] | ->] | ->]; (split; [lia|]); [exists 32 | exists 16 | exists 8 | exists 4]; reflexivity.
  Qed.

  Lemma op_ok_rot op a c : is_rot op = true -> op_ok op [a; c] = (size c =? 8) && ((size a =? 8) || (size a =? 16) || (size a =? 32) || (size a =? 64)).
  Proof. unfold op_ok, args_ok, frag_op, is_shift, is_rot, rot_args_ok. destruct (opk_of op); try discriminate; intros _; cbn [andb]; apply andb_true_r. Qed.
  Lemma wf_rot_inv op l : is_rot op = true -> wf (EOp op l) = true ->
    exists a c, l = [a; c] /\ wf a = true /\ wf c = true /\ size c = 8 /\ (size a =? 8) || (size a =? 16) || (size a =? 32) || (size a =? 64) = true.
  Proof.
    intros S W. apply wf_op_iff in W as [Wl O]. assert (E : exists a c, l = [a; c]).
    { destruct (op_ok_inv _ _ O) as (a & r & -> & _ & Ao). unfold args_ok, is_shift, is_rot in *. destruct (opk_of op); try discriminate S; destruct r as [|c [|? ?]]; try discriminate Ao; eauto. }
    destruct E as (a & c & ->). rewrite (op_ok_rot op a c S) in O. apply andb_true_iff in O as [Sc Std]. apply Z.eqb_eq in Sc.
    inversion Wl as [|? ? Wa Wl']; inversion Wl' as [|? ? Wc _]; subst. eauto 8.
  Qed.
  Lemma rot_node_good opr x cnt e0 : is_rot opr = true -> wf x = true -> wf cnt = true -> size cnt = 8 ->
    ((size x =? 8) || (size x =? 16) || (size x =? 32) || (size x =? 64)) = true -> size e0 = size x ->
    ev e0 = (match opk_of opr with ORol => rol (size x) (ev x) (ev cnt) | _ => ror (size x) (ev x) (ev cnt) end) ->
    good e0 (EOp opr [x; cnt]).
  Proof.
    intros Sr Wx Wcnt Scnt Std Se Ee. destruct (wf_range x Wx) as [Px Rx]. split; [|split].
    - apply wf_op_iff. split; [repeat constructor; assumption|]. rewrite (op_ok_rot opr x cnt Sr), Scnt, Std. reflexivity.
    - rewrite size_op by lia. symmetry. exact Se.
    - rewrite Ee. rewrite (ev_rot opr x cnt Sr Px Rx). reflexivity.
  Qed.

  Theorem simp_op_rot op eargs e' : is_rot op = true -> wf (EOp op eargs) = true -> simp_op op eargs = Ok e' -> good (EOp op eargs) e'.
  Proof.
    intros S W H. destruct (wf_rot_inv _ _ S W) as (a & c & -> & Wa & Wc & Sc & Std). destruct (std8_divides _ Std) as [Pn Dv].
    destruct (wf_range a Wa) as [Pa Ra]. rewrite (simp_rot_unfold op a c S) in H. unfold rot_pipeline in H.
    pose proof (good_keep _ e' W) as Keep.
    assert (Sz : size (EOp op [a; c]) = size a) by (apply size_op; lia).
    pose proof (ev_rot op a c S Pa Ra) as Ev.
    assert (Id : forall k, k mod size a = 0 -> is_int_val c k = true -> good (EOp op [a; c]) a).
    { intros k K0 Ik. split; [exact Wa|]. split; [symmetry; exact Sz|]. rewrite Ev, (is_int_val_ev c k Ik Wc). unfold is_rot in S.
      destruct (opk_of op); try discriminate; [rewrite <- (rol_mod (size a) (ev a) k Pa), K0; symmetry; apply rol_0 | rewrite <- (ror_mod (size a) (ev a) k Pa), K0; symmetry; apply ror_0]; assumption. }
    destruct (is_int_val c 0) eqn:Z0; [inversion H; subst e'; apply (Id 0); [apply Z.mod_0_l; lia | exact Z0]|].
    destruct (is_int c && is_int_val c (size a)) eqn:Full.
    { inversion H; subst e'. apply andb_true_iff in Full as [_ F2]. apply (Id (size a)); [apply Z.mod_same; lia | exact F2]. }
    destruct a as [| | |op2 ys| | | |]; try exact (Keep H). destruct (is_rot op2) eqn:S2; [|exact (Keep H)].
    (* the inner rotation is well formed: a value and an 8-bit count *)
    destruct (wf_rot_inv _ _ S2 Wa) as (x & c2 & -> & Wx & Wc2 & Sc2 & _). destruct (wf_range x Wx) as [Px Rx].
    assert (Sx : size (EOp op2 [x; c2]) = size x) by (apply size_op, Z.neq_sym, Z.lt_neq, Px).
    pose proof (ev_rot op2 x c2 S2 Px Rx) as Ev2. rewrite Sx in *.
    destruct (String.eqb_spec op op2) as [<-|Eop]; inversion H; subst e'.
    - destruct (sum_good 8 c2 c eq_refl Wc2 Wc Sc2 Sc) as (Ws & Ss & Es).
      apply (rot_node_good op x (EOp "+" [c2; c]) _ S Wx Ws Ss Std Sz).
      rewrite Ev, Ev2, Es. unfold is_rot in S. destruct (opk_of op); try discriminate.
      + rewrite rol_rol by assumption. apply rol_cong. symmetry. apply count_sum_mod; [exact Pn | exact Dv].
      + rewrite ror_ror by assumption. apply ror_cong. symmetry. apply count_sum_mod; [exact Pn | exact Dv].
    - destruct (neg_good c Wc) as (Wn & Sn & En). rewrite Sc in Sn, En. destruct (sum_good 8 c2 (neg c) eq_refl Wc2 Wn Sc2 Sn) as (Ws & Ss & Es).
      apply (rot_node_good op2 x (EOp "+" [c2; neg c]) _ S2 Wx Ws Ss Std Sz).
      rewrite Ev, Ev2, Es, En. unfold is_rot in S, S2.
      assert (Cg : (wrap 8 (ev c2 + wrap 8 (- ev c))) mod size x = (ev c2 - ev c) mod size x) by (apply count_diff_mod; [exact Pn | exact Dv]).
      destruct (opk_of op) eqn:Ek; try discriminate; destruct (opk_of op2) eqn:Ek2; try discriminate.
      + exfalso. apply Eop. apply opk_inj; rewrite Ek; [symmetry; exact Ek2 | discriminate].
      + rewrite rol_ror by assumption. apply ror_cong. symmetry. exact Cg.
      + rewrite ror_rol by assumption. apply rol_cong. symmetry. exact Cg.
      + exfalso. apply Eop. apply opk_inj; rewrite Ek; [symmetry; exact Ek2 | discriminate].
  Qed.

  Lemma neg_is_zero n v : 0 <= v < 2 ^ n -> (wrap n (- v) =? 0) = (v =? 0).
  Proof.
    intros R. destruct (Z.eqb_spec v 0) as [->|Nz]; [apply Z.eqb_eq, wrap_0|]. apply Z.eqb_neq. unfold wrap.
    rewrite Z.mod_opp_l_nz; rewrite ?Z.mod_small by exact R; lia.
  Qed.
  Lemma simp_cond_good c a b : wf (ECond c a b) = true -> good (ECond c a b) (simp_cond (ECond c a b) c a b).
  Proof.
    intros W. pose proof W as W'. apply wf_cond_iff in W' as (Wc & Wa & Wb & Sab).
    unfold simp_cond. destruct c as [sg w v| | |op [|x [|? ?]]| | | |]; try (apply good_refl; exact W).
    - unfold good. rewrite ev_cond, (proj2 (proj2 (proj2 (wf_int_inv _ _ _ Wc)))). cbn [size]. destruct (v =? 0); auto.
    - destruct (String.eqb_spec op "-") as [->|_]; [|apply good_refl; exact W]. apply (proj1 (wf_neg_iff x)) in Wc. destruct (wf_range x Wc) as [Px Rx].
      split; [apply wf_cond_iff; auto|]. split; [reflexivity|]. rewrite !ev_cond, ev_neg, neg_is_zero by assumption. reflexivity.
  Qed.

  Lemma clip_id x n : 0 <= x <= n -> clip x n = x.
  Proof. intros H. unfold clip. destruct (Z.ltb_spec x 0); [lia | apply Z.min_l; lia]. Qed.
  Lemma getitem_slice e lo hi : 0 <= lo <= hi -> hi <= size e -> getitem e lo hi = ESlice e lo hi.
  Proof. intros H1 H2. unfold getitem. cbv zeta. rewrite !clip_id by lia. reflexivity. Qed.
  Lemma piece_width s : slot_ok s -> slot_hi s - slot_lo s <= size (slot_e s).
  Proof.
    intros (_ & _ & _ & _ & A4). unfold piece_shape in A4. destruct (slot_e s); try (apply Z.eqb_eq in A4; lia). apply Z.leb_le in A4. exact A4.
  Qed.

  Theorem simp_slice_good a lo hi e' : wf (ESlice a lo hi) = true -> simp_slice (ESlice a lo hi) a lo hi = Ok e' -> good (ESlice a lo hi) e'.
  Proof.
    intros W H. pose proof W as W'. apply wf_slice_iff in W' as (Wa & L0 & Llh & Lhs). destruct (wf_bounds a Wa) as [[Pa Sle] Ra].
    pose proof (good_keep _ e' W) as Keep.
    unfold simp_slice in H. destruct ((lo =? 0) && (hi =? size a)) eqn:Full.
    { inversion H; subst e'. apply andb_true_iff in Full as [F1 F2]. apply Z.eqb_eq in F1, F2. subst lo hi.
      apply good_operand; [exact Wa | cbn [size]; lia | rewrite ev_slice, Z.shiftr_0_r, Z.sub_0_r; reflexivity]. }
    destruct a as [sg w v| |addr w sgm| | |a2 lo2 hi2|slots|]; try discriminate Wa; try exact (Keep H); cbn [size] in Lhs, Sle.
    - destruct (std_width (hi - lo)); [|exact (Keep H)]. inversion H; subst e'. clear H.
      rewrite (slice_int v lo (hi - lo)) by lia. apply good_int; [lia | reflexivity|]. rewrite ev_slice, (proj2 (proj2 (proj2 (wf_int_inv _ _ _ Wa)))). reflexivity.
    - (* memory cell: the low bytes *)
      destruct ((lo =? 0) && (w >? hi) && (hi mod 8 =? 0)) eqn:C; [|exact (Keep H)]. inversion H; subst e'. clear H.
      apply andb_true_iff in C as [C C3]. apply andb_true_iff in C as [C1 C2]. apply Z.eqb_eq in C1, C3. subst lo. apply Z.gtb_lt in C2.
      apply wf_mem_iff in Wa as (Wad & _). split; [apply wf_mem_iff; repeat split; auto; lia|]. split; [cbn [size]; lia|].
      rewrite ev_slice, Z.shiftr_0_r, Z.sub_0_r. cbn [eval]. symmetry. apply mem_read_narrow; lia.
    - destruct (hi - lo >? hi2 - lo2); [discriminate|]. inversion H; subst e'. clear H. apply wf_slice_iff in Wa as (Wa2 & M0 & Mlh & Mhs).
      split; [apply wf_slice_iff; repeat split; auto; lia|]. split; [cbn [size]; lia|]. rewrite !ev_slice. replace (lo + lo2 + (hi - lo) - (lo + lo2)) with (hi - lo) by lia. symmetry. apply slice_slice; lia.
    - (* slice of a concatenation: the slot containing the range *)
      destruct (find (fun s => (slot_lo s <=? lo) && (slot_hi s >=? hi)) slots) as [s|] eqn:Fd; [|exact (Keep H)].
      inversion H; subst e'. clear H. apply find_some in Fd as [Is Cs]. apply andb_true_iff in Cs as [C1 C2]. apply Z.leb_le in C1. apply Z.geb_le in C2.
      destruct (proj1 (wf_compose_iff slots) Wa) as (_ & _ & Hs & _ & _ & Oc). pose proof (piece_width s (Hs s Is)) as Sz. destruct (Hs s Is) as (Ws & A1 & A2 & _).
      rewrite getitem_slice by lia. split; [apply wf_slice_iff; repeat split; auto; lia|]. split; [cbn [size]; lia|].
      rewrite !ev_slice. replace (hi - slot_lo s - (lo - slot_lo s)) with (hi - lo) by lia. apply wrap_eq_bits; [lia|]. intros k Hk.
      rewrite !Z.shiftr_spec by lia. rewrite eval_compose_V.
      rewrite (V_bit_unique rho mu iota slots s (k + lo)) by (try lia; try assumption; intros a Ia; destruct (Hs a Ia) as (_ & B1 & B2 & _); lia).
      f_equal. lia.
  Qed.

  Lemma piece_in_ok n s : slot_ok s -> slot_hi s <= n -> in_piece_ok n s.
  Proof.
    intros (Ws & A1 & A2 & _ & A4) A3. unfold in_piece_ok. repeat split; try assumption. unfold piece_shape in A4.
    destruct (slot_e s) as [sg w v| | | | |src slo shi| |] eqn:E; try exact I.
    - destruct (wf_int_inv _ _ _ Ws) as (-> & _ & Rv & _). apply Z.leb_le in A4. repeat split; try lia.
    - apply Z.eqb_eq in A4. cbn [size] in A4. apply wf_slice_iff in Ws as (_ & B1 & _). split; lia.
  Qed.

  Theorem simp_compose_good args e' : wf (ECompose args) = true -> simp_compose (ECompose args) args = Ok e' -> good (ECompose args) e'.
  Proof.
    intros W H. destruct (proj1 (wf_compose_iff args) W) as (_ & _ & Hs & Nd & _). destruct (wf_compose_size args W) as (Esz & Pn & Ln).
    unfold simp_compose in H. apply bind_ok in H as (m & Hm & H).
    assert (Fin : Forall (in_piece_ok (maxhi args)) args).
    { apply Forall_forall. intros s Is. apply piece_in_ok; [exact (Hs s Is) | apply maxhi_ge, Is]. }
    destruct (merge_spec rho mu iota args m (maxhi args) eq_refl Pn Ln Nd Fin Hm) as (M1 & _ & M3 & _ & M5). rewrite Forall_forall in M3.
    (* every slot of the result is well formed *)
    assert (Hm_ok : forall s, In s m -> slot_ok s /\ (slot_lo s = 0 -> slot_hi s = maxhi args -> size (slot_e s) = maxhi args)).
    { intros s Is. unfold slot_ok. destruct (M3 s Is) as [[Ia Oth]|[(v & Ee & Rv & B1 & B2 & B3)|(src & slo0 & shi & a' & Ee & B0 & B1 & B2 & B3 & B4 & a1 & Ia1 & Ea1)]].
      - destruct (Hs s Ia) as (Ws & A1 & A2 & A3 & A4). repeat split; try assumption.
        intros L0 Hh. unfold piece_shape in A4. unfold is_other in Oth. destruct (slot_e s); try contradiction; apply Z.eqb_eq in A4; lia.
      - rewrite Ee. assert (R2 : 0 <= v < 2 ^ maxhi args) by (split; [lia|]; apply Z.lt_le_trans with (2 ^ (slot_hi s - slot_lo s)); [lia | apply Z.pow_le_mono_r; lia]).
        repeat split; try lia; [apply wf_int_iff; auto | apply Z.leb_le; lia].
      - rewrite Ee. destruct (Hs a1 Ia1) as (Wa1 & _). rewrite Ea1 in Wa1. apply wf_slice_iff in Wa1 as (Wsrc & _ & _ & Le).
        repeat split; try lia; [apply wf_slice_iff; repeat split; auto; lia | apply Z.eqb_eq; cbn [size]; lia | cbn [size]; lia]. }
    assert (Gm : good (ECompose args) (ECompose m)) by (apply compose_good; [exact W | intros s Is; apply (Hm_ok s Is) | exact M5 | exact M1]).
    assert (Keep : Ok (ECompose m) = Ok e' -> good (ECompose args) e') by (intros Q; inversion Q; subst e'; exact Gm).
    destruct m as [|s [|s2 m']]; try exact (Keep H).
    destruct ((slot_lo s =? 0) && (slot_hi s =? size (ECompose args))) eqn:Q; [|exact (Keep H)]. inversion H; subst e'. clear H.
    (* a single slot that covers the whole width is returned as its piece *)
    apply andb_true_iff in Q as [Q1 Q2]. apply Z.eqb_eq in Q1, Q2. rewrite Esz in Q2.
    destruct (Hm_ok s (or_introl eq_refl)) as ((B1 & _) & B6). specialize (B6 Q1 Q2).
    apply good_operand; [exact B1 | rewrite Esz, B6; reflexivity|]. destruct Gm as (_ & _ & <-). rewrite eval_compose_V. cbn [V fold_right]. rewrite Z.lor_0_r.
    unfold sval, fld. rewrite Q1, Q2, B6, Z.shiftl_0_r, Z.sub_0_r. reflexivity.
  Qed.

  Theorem simp1_good e e' : wf e = true -> simp1 e = Ok e' -> good e e'.
  Proof.
    (* [cbn in H] would leave the conversion to be redone in every branch of the case analysis below: revert first *)
    intros W. destruct e as [| | |op args|c a b|a lo hi|slots|]; cbn [simp1]; intros H; [| | | | | | |discriminate W].
    1-3: inversion H; subst; apply good_refl; exact W.
    - pose proof W as W'. apply wf_op_iff in W' as [_ O]. destruct (op_ok_inv _ _ O) as (_ & _ & _ & F & _). unfold frag_op in F.
      (* the operator is one of thirteen literal strings; the goals come in the order of opk's constructors:
         + * ^ & | (associative), -, << >> a>> (shifts), <<< >>> (rotations), ==, parity *)
      assert (N : op = opk_str (opk_of op)) by (apply opk_name; intros Ek; rewrite Ek in F; discriminate F).
      revert W H. rewrite N. destruct (opk_of op); try discriminate F; cbn [opk_str]; intros W H.
      1-5: refine (simp_op_assoc _ _ _ _ _ W H); reflexivity.
      1: exact (simp_op_sub _ _ W H).
      1-3: refine (simp_op_shift _ _ _ _ W H); reflexivity.
      1-2: refine (simp_op_rot _ _ _ _ W H); reflexivity.
      + exact (simp_op_eq _ _ W H).
      + exact (simp_op_parity _ _ W H).
    - inversion H; subst. apply simp_cond_good. exact W.
    - apply simp_slice_good; assumption.
    - apply simp_compose_good; assumption.
  Qed.

  (** what the traversal keeps: [good], and constants stay constants (the shape of a piece of a concatenation depends on it) *)
  Definition vrel (e r : expr) : Prop := good e r /\ (is_int e = true -> is_int r = true).
  Definition slot_rel (s s' : slot) : Prop := vrel (slot_e s) (slot_e s') /\ slot_lo s' = slot_lo s /\ slot_hi s' = slot_hi s.
  Lemma compose_node_good args args' : wf (ECompose args) = true -> Forall2 slot_rel args args' -> good (ECompose args) (ECompose args').
  Proof.
    intros W F. destruct (proj1 (wf_compose_iff args) W) as (_ & _ & Hs & _).
    assert (E : (forall i, occ args' i = occ args i) /\ V rho mu iota args' = V rho mu iota args).
    { clear - F. induction F as [|s s' l l' (((_ & _ & Ev) & _) & R1 & R2) _ (I1 & I2)]; [split; reflexivity|].
      split; [intros i; simpl; rewrite R1, R2, I1; reflexivity|].
      cbn [V fold_right]. fold (V rho mu iota l'). fold (V rho mu iota l). unfold sval. rewrite I2, R1, R2, Ev. reflexivity. }
    apply compose_good; [exact W | | apply E | apply E].
    clear - F Hs. induction F as [|s s' l l' R _ IH]; intros t It; [contradiction|]. destruct It as [<-|It]; [|apply IH; [intros u Iu; apply Hs; right; exact Iu | exact It]].
    destruct (Hs s (or_introl eq_refl)) as (Ws & A1 & A2 & A3 & A4). destruct R as (((W' & Sz & _) & Ri) & R1 & R2). unfold slot_ok. rewrite R1, R2. repeat split; try assumption.
    rewrite piece_shape_alt in A4 |- *. destruct (is_int (slot_e s)) eqn:Io.
    - rewrite (Ri eq_refl). apply Z.leb_le in A4. apply Z.leb_le. lia.
    - apply Z.eqb_eq in A4. destruct (is_int (slot_e s')); [apply Z.leb_le | apply Z.eqb_eq]; lia.
  Qed.

  (** the children of a well-formed node are well formed, so a relation between children need only be weakened on those *)
  Lemma rebuilt_wf (P Q : expr -> expr -> Prop) e n : wf e = true -> rebuilt P e n -> (forall a a', wf a = true -> P a a' -> Q a a') -> rebuilt Q e n.
  Proof.
    intros W RB PQ. destruct RB as [| |a a' w s s' Va Vs|op l l' F|c a b c' a' b' Vc Va Vb|a a' lo hi Va|l l' F|]; try discriminate W.
    - constructor.
    - constructor.
    - apply wf_mem_iff in W as (Wa & _ & Ws). constructor; [auto|]. destruct s, s'; auto.
    - apply wf_op_iff in W as [Wl _]. constructor. refine (Forall2_impl_in _ _ _ _ _ F). eapply Forall_impl; [|exact Wl]. intros a Wa a'. exact (PQ a a' Wa).
    - apply wf_cond_iff in W as (Wc & Wa & Wb & _). constructor; auto.
    - apply wf_slice_iff in W as (Wa & _). constructor; auto.
    - destruct (proj1 (wf_compose_iff _) W) as (_ & _ & Hs & _). constructor. refine (Forall2_impl_in _ _ _ _ _ F).
      apply Forall_forall. intros s Is s' (V & L). split; [exact (PQ _ _ (proj1 (Hs s Is)) V) | exact L].
  Qed.
  Lemma rebuilt_good e n : wf e = true -> rebuilt vrel e n -> good e n.
  Proof.
    intros W RB. destruct RB as [| |a a' w s s' Va Vs|op l l' F|c a b c' a' b' Vc Va Vb|a a' lo hi Va|l l' F|]; try discriminate W.
    - apply good_refl. exact W.
    - apply good_refl. exact W.
    - apply wf_mem_iff in W as (Wa & Pw & Ws). destruct Va as [(Wa' & _ & Ea') _].
      split; [|split; [reflexivity | cbn [eval]; rewrite Ea'; reflexivity]].
      apply wf_mem_iff. split; [exact Wa'|]. split; [exact Pw|]. destruct s, s'; try contradiction; [apply Vs | exact I].
    - apply op_node_rel; [exact W|]. eapply Forall2_impl; [|exact F]. intros a b V. apply V.
    - apply wf_cond_iff in W as (Wc & Wa & Wb & Sab). destruct Vc as [(Wc' & _ & Ec') _], Va as [(Wa' & Sa' & Ea') _], Vb as [(Wb' & Sb' & Eb') _].
      split; [apply wf_cond_iff; repeat split; auto; congruence|]. split; [exact Sa' | rewrite !ev_cond, Ec', Ea', Eb'; reflexivity].
    - apply wf_slice_iff in W as (Wa & L0 & Llh & Lhs). destruct Va as [(Wa' & Sa' & Ea') _].
      split; [apply wf_slice_iff; repeat split; auto; lia|]. split; [reflexivity | rewrite !ev_slice, Ea'; reflexivity].
    - apply compose_node_good; [exact W | exact F].
  Qed.

  Section Frame.
    Variable cb : expr -> res expr.
    Hypothesis cb_good : forall x x', wf x = true -> cb x = Ok x' -> good x x'.
    Hypothesis cb_int : forall sg w v x', cb (EInt sg w v) = Ok x' -> is_int x' = true.

    Lemma vrel_step e n (b : bool) r : wf e = true -> rebuilt vrel e n -> cb (if b then e else n) = Ok r -> vrel e r.
    Proof.
      intros W RB HC. assert (G : good e (if b then e else n)) by (destruct b; [apply good_refl; exact W | exact (rebuilt_good e n W RB)]).
      split; [eapply good_trans; [exact G|]; apply cb_good; [apply G | exact HC]|].
      intros I. destruct RB; try discriminate I. destruct b; exact (cb_int _ _ _ _ HC).
    Qed.
    Lemma visit_vrel : forall e r, visitM cb e = Ok r -> wf e = true -> vrel e r.
    Proof. apply (visitM_ind cb (fun e r => wf e = true -> vrel e r)). intros e n b r RB _ HC W. exact (vrel_step e n b r W (rebuilt_wf _ _ e n W RB (fun a a' Wa V => V Wa)) HC). Qed.
    Lemma visit_good e e' : wf e = true -> visitM cb e = Ok e' -> good e e'.
    Proof. intros W H. apply (visit_vrel e e' H W). Qed.
  End Frame.

  Lemma loop_good (rec_simp : expr -> res expr) : (forall x x', wf x = true -> rec_simp x = Ok x' -> good x x') ->
    forall n e e', wf e = true -> simp_loop rec_simp n e = Ok e' -> good e e'.
  Proof.
    intros R. induction n as [|n IH]; intros e e' W H; simpl in H; [discriminate|].
    apply bind_ok in H as (e1 & E1 & H).
    pose proof (simp1_good e e1 W E1) as G1.
    destruct (expr_eqb e1 e).
    - inversion H; subst. apply good_refl. exact W.
    - apply bind_ok in H as (e2 & E2 & H).
      pose proof (R e1 e2 ltac:(apply G1) E2) as G2.
      eapply good_trans; [exact G1|]. eapply good_trans; [exact G2|]. apply IH; [apply G2 | exact H].
  Qed.

  Lemma loop_int rec_simp n sg w v x' : simp_loop rec_simp (S n) (EInt sg w v) = Ok x' -> is_int x' = true.
  Proof. cbn [simp_loop simp1 bind]. rewrite eqb_refl. intros H. inversion H; subst. reflexivity. Qed.

  Theorem simp_good : forall fuel e e', wf e = true -> simp fuel e = Ok e' -> good e e'.
  Proof.
    induction fuel as [|f IH]; intros e e' W H; [simpl in H; discriminate|].
    simpl in H. apply (visit_good (simp_loop (simp f) (S f))); [| |exact W | exact H].
    - intros x x' Wx Hx. apply (loop_good (simp f) IH (S f)); assumption.
    - intros sg w v x' Hx. apply loop_int in Hx. exact Hx.
  Qed.
End Sound.

Theorem simp_sound_frag1 : forall fuel e e', wf e = true -> simp fuel e = Ok e' ->
  wf e' = true /\ size e' = size e /\ forall rho mu iota, eval rho mu iota e' = eval rho mu iota e.
Proof.
  intros fuel e e' W H. pose proof (simp_good (fun _ => 0) (fun _ => 0) (fun _ _ => 0) fuel e e' W H) as (A & B & _).
  split; [exact A|]. split; [exact B|]. intros rho mu iota. apply (simp_good rho mu iota fuel e e' W H).
Qed.
End IdPred.

(** on well-formed trees the order of the operands of a commutative-associative operator does not influence the value of the result *)
Lemma operand_order_value : forall (ac : bool) (Q : string -> Z -> bool -> bool -> bool) op k args args' fuel r r',
  aop_of op = Some k -> Permutation args args' -> wf ac Q (EOp op args) = true ->
  simp fuel (EOp op args) = Ok r -> simp fuel (EOp op args') = Ok r' ->
  size r = size r' /\ forall rho mu iota, eval rho mu iota r = eval rho mu iota r'.
Proof.
  intros ac Q op k args args' fuel r r' K P W H H'.
  pose proof (fun rho mu iota => perm_node_good ac Q rho mu iota op k args args' K P W) as G.
  destruct (G (fun _ => 0) (fun _ => 0) (fun _ _ => 0)) as (W' & S & _).
  destruct (simp_sound_frag1 ac Q fuel _ _ W H) as (_ & S1 & E1). destruct (simp_sound_frag1 ac Q fuel _ _ W' H') as (_ & S2 & E2).
  split.
  - rewrite S1, S2. symmetry. exact S.
  - intros rho mu iota. rewrite E1, E2. symmetry. apply G.
Qed.
