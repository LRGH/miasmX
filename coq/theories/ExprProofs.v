(** ExprProofs.v — structural laws of the IR model (C15, C16): the induction principle of the nested [expr]; == as equality of
    erased trees, and the sizes, values and hashes it preserves; copy, visit and replace_expr; the per-node evaluation lemmas; read
    sets and the coincidence theorem. *)
From Coq Require Import ZArith List Bool String.
From Mx Require Import Expr.
Import ListNotations.
Open Scope Z_scope.

Definition opk_str (k : opk) : string :=
  match k with
  | OAdd => "+" | OMul => "*" | OXor => "^" | OAnd => "&" | OOr => "|" | OSub => "-" | OShl => "<<" | OShr => ">>" | OSar => "a>>"
  | ORol => "<<<" | ORor => ">>>" | OEq => "==" | OParity => "parity" | ONot => "!" | OOther => ""
  end.
Lemma opk_name op : opk_of op <> OOther -> op = opk_str (opk_of op).
Proof.
  unfold opk_of.
  repeat match goal with |- context [(op =? ?s)%string] => destruct (String.eqb_spec op s) as [->|_]; [reflexivity|] end.
  intros N. exfalso. apply N. reflexivity.
Qed.
Lemma opk_inj op op2 : opk_of op = opk_of op2 -> opk_of op <> OOther -> op = op2.
Proof. intros E N. rewrite (opk_name op2) by (rewrite <- E; exact N). rewrite <- E. apply opk_name. exact N. Qed.

Lemma opk_match_other {A} k (a b : A) : k <> OOther -> match k with OOther => a | _ => b end = b.
Proof. destruct k; congruence. Qed.

Section ExprInd.
  Variable P : expr -> Prop.
  Hypothesis HInt : forall sg w v, P (EInt sg w v).
  Hypothesis HId : forall n w r t, P (EId n w r t).
  Definition Popt (s : option expr) : Prop := match s with Some u => P u | None => True end.
  Hypothesis HMem : forall a w s, P a -> Popt s -> P (EMem a w s).
  Hypothesis HOp : forall op args, Forall P args -> P (EOp op args).
  Hypothesis HCond : forall c a b, P c -> P a -> P b -> P (ECond c a b).
  Hypothesis HSlice : forall e lo hi, P e -> P (ESlice e lo hi).
  Hypothesis HCompose : forall args, Forall (fun s => P (slot_e s)) args -> P (ECompose args).
  Hypothesis HAff : forall d s, P d -> P s -> P (EAff d s).
  Fixpoint expr_ind' (e : expr) : P e :=
    match e with
    | EInt sg w v => HInt sg w v
    | EId n w r t => HId n w r t
    | EMem a w s => HMem a w s (expr_ind' a)
        (match s as s0 return Popt s0 with
         | Some u => expr_ind' u | None => I end)
    | EOp op args => HOp op args
        ((fix go (l : list expr) : Forall P l :=
            match l with [] => Forall_nil _ | x :: r => Forall_cons _ (expr_ind' x) (go r) end) args)
    | ECond c a b => HCond c a b (expr_ind' c) (expr_ind' a) (expr_ind' b)
    | ESlice e1 lo hi => HSlice e1 lo hi (expr_ind' e1)
    | ECompose args => HCompose args
        ((fix go (l : list slot) : Forall (fun s => P (slot_e s)) l :=
            match l with
            | [] => Forall_nil _
            | s :: r => Forall_cons _
                (match s as s0 return P (slot_e s0) with (e0, lo, hi) => expr_ind' e0 end) (go r)
            end) args)
    | EAff d s => HAff d s (expr_ind' d) (expr_ind' s)
    end.
End ExprInd.

Lemma all2_refl {A} (f : A -> A -> bool) l : Forall (fun a => f a a = true) l -> all2 f l l = true.
Proof. induction 1; simpl; auto. rewrite H, IHForall. reflexivity. Qed.

Lemma all2_length {A} (f : A -> A -> bool) l l' : all2 f l l' = true -> List.length l = List.length l'.
Proof.
  revert l'; induction l as [|a l IH]; intros [|b l']; simpl; auto; try discriminate.
  intros H. apply andb_true_iff in H as [_ H]. f_equal. auto.
Qed.

Lemma all2_map_eq {A B} (f : A -> A -> bool) (g : A -> B) l :
  Forall (fun a => forall b, f a b = true <-> g a = g b) l ->
  forall l', all2 f l l' = true <-> map g l = map g l'.
Proof.
  induction 1 as [|a l Ha _ IH]; intros [|b l']; simpl; try (split; (reflexivity || discriminate)).
  rewrite andb_true_iff, Ha, IH. split; [intros [-> ->]; reflexivity | intros E; injection E; auto].
Qed.

Definition slot_eqb (s s' : slot) : bool :=
  expr_eqb (slot_e s) (slot_e s') && (slot_lo s =? slot_lo s') && (slot_hi s =? slot_hi s').

Lemma eqb_op op l op' l' :
  expr_eqb (EOp op l) (EOp op' l') = (op =? op')%string && all2 expr_eqb l l'.
Proof.
  simpl. f_equal. revert l'. induction l as [|a l IH]; intros [|b l']; simpl; auto. rewrite IH. reflexivity.
Qed.

Lemma eqb_compose l l' : expr_eqb (ECompose l) (ECompose l') = all2 slot_eqb l l'.
Proof.
  simpl. revert l'. induction l as [|[[a lo] hi] l IH]; intros [|[[b lo'] hi'] l']; simpl; auto.
  rewrite IH. unfold slot_eqb; simpl. reflexivity.
Qed.

Lemma eqb_same_constructor x y : expr_eqb x y = true ->
  match x, y with
  | EInt _ _ _, EInt _ _ _ | EId _ _ _ _, EId _ _ _ _ | EMem _ _ _, EMem _ _ _ | EOp _ _, EOp _ _
  | ECond _ _ _, ECond _ _ _ | ESlice _ _ _, ESlice _ _ _ | ECompose _, ECompose _ | EAff _ _, EAff _ _ => True
  | _, _ => False
  end.
Proof. destruct x, y; try (intros _; exact I); discriminate. Qed.

Lemma eqb_int sg w v sg' w' v' : expr_eqb (EInt sg w v) (EInt sg' w' v') = (v =? v') && (w =? w').
Proof. reflexivity. Qed.
Lemma eqb_id n w r t n' w' r' t' :
  expr_eqb (EId n w r t) (EId n' w' r' t') = (n =? n')%string && (w =? w') && Bool.eqb r r'.
Proof. reflexivity. Qed.
Lemma eqb_mem a w s a' w' s' :
  expr_eqb (EMem a w s) (EMem a' w' s') = expr_eqb a a' && (w =? w') && opt_eqb expr_eqb s s'.
Proof. simpl. destruct s, s'; reflexivity. Qed.
Lemma eqb_cond c a b c' a' b' :
  expr_eqb (ECond c a b) (ECond c' a' b') = expr_eqb c c' && expr_eqb a a' && expr_eqb b b'.
Proof. reflexivity. Qed.
Lemma eqb_slice e lo hi e' lo' hi' :
  expr_eqb (ESlice e lo hi) (ESlice e' lo' hi') = expr_eqb e e' && (lo =? lo') && (hi =? hi').
Proof. reflexivity. Qed.
Lemma eqb_aff d s d' s' : expr_eqb (EAff d s) (EAff d' s') = expr_eqb s s' && expr_eqb d d'.
Proof. reflexivity. Qed.
Opaque expr_eqb.

(** [==] is equality of the trees with the two fields it never reads blanked: the sign tag of a
    constant and [is_term].  Reflexivity, symmetry, transitivity and every congruence follow from that. *)
Definition map_slot (f : expr -> expr) (s : slot) : slot := (f (slot_e s), slot_lo s, slot_hi s).

Fixpoint erase (e : expr) : expr :=
  match e with
  | EInt _ w v => EInt false w v
  | EId n w r _ => EId n w r false
  | EMem a w s => EMem (erase a) w (option_map erase s)
  | EOp op l => EOp op (map erase l)
  | ECond c a b => ECond (erase c) (erase a) (erase b)
  | ESlice e1 lo hi => ESlice (erase e1) lo hi
  | ECompose l => ECompose (map (map_slot erase) l)
  | EAff d s => EAff (erase d) (erase s)
  end.

Lemma slot_eqb_erase s t : (forall y, expr_eqb (slot_e s) y = true <-> erase (slot_e s) = erase y) ->
  slot_eqb s t = true <-> map_slot erase s = map_slot erase t.
Proof.
  intros IH. unfold slot_eqb, map_slot. rewrite !andb_true_iff, IH, !Z.eqb_eq. intuition congruence.
Qed.

Theorem eqb_erase : forall x y, expr_eqb x y = true <-> erase x = erase y.
Proof.
  induction x using expr_ind'; intros y; destruct y;
    try (split; [intros E; destruct (eqb_same_constructor _ _ E) | discriminate]); cbn [erase].
  - rewrite eqb_int, andb_true_iff, !Z.eqb_eq. intuition congruence.
  - rewrite eqb_id, !andb_true_iff, String.eqb_eq, Z.eqb_eq, Bool.eqb_true_iff. intuition congruence.
  - rewrite eqb_mem, !andb_true_iff, IHx, Z.eqb_eq.
    destruct s, segm; simpl in *; rewrite ?H; intuition congruence.
  - rewrite eqb_op, andb_true_iff, String.eqb_eq, (all2_map_eq _ erase _ H). intuition congruence.
  - rewrite eqb_cond, !andb_true_iff, IHx1, IHx2, IHx3. intuition congruence.
  - rewrite eqb_slice, !andb_true_iff, IHx, !Z.eqb_eq. intuition congruence.
  - rewrite eqb_compose, (all2_map_eq _ (map_slot erase)); [intuition congruence|].
    eapply Forall_impl; [|exact H]. intros s Hs t. apply slot_eqb_erase, Hs.
  - rewrite eqb_aff, andb_true_iff, IHx1, IHx2. intuition congruence.
Qed.

Lemma eqb_refl : forall e, expr_eqb e e = true.
Proof. intros e. apply eqb_erase. reflexivity. Qed.

Lemma eqb_sym : forall x y, expr_eqb x y = expr_eqb y x.
Proof. intros x y. apply eq_true_iff_eq. rewrite !eqb_erase. split; congruence. Qed.

Lemma eqb_trans : forall x y z, expr_eqb x y = true -> expr_eqb y z = true -> expr_eqb x z = true.
Proof. intros x y z. rewrite !eqb_erase. congruence. Qed.

Lemma eqb_congr {A} (f : expr -> A) : (forall e, f (erase e) = f e) ->
  forall x y, expr_eqb x y = true -> f x = f y.
Proof. intros F x y E. apply eqb_erase in E. rewrite <- (F x), <- (F y), E. reflexivity. Qed.

Lemma map_id_Forall {A} (f : A -> A) l : Forall (fun a => f a = a) l -> map f l = l.
Proof. induction 1; simpl; congruence. Qed.

Lemma map_slot_id f l : Forall (fun s => f (slot_e s) = slot_e s) l -> map (map_slot f) l = l.
Proof.
  intros H. apply map_id_Forall. eapply Forall_impl; [|exact H]. intros [[a lo] hi] E. unfold map_slot. rewrite E. reflexivity.
Qed.

Lemma fold_left_map {A B C} (f : C -> B -> C) (g : A -> B) l x : fold_left (fun m a => f m (g a)) l x = fold_left f (map g l) x.
Proof. revert x; induction l; simpl; auto. Qed.

Lemma size_compose_maps l l' :
  map slot_lo l = map slot_lo l' -> map slot_hi l = map slot_hi l' -> size (ECompose l) = size (ECompose l').
Proof.
  destruct l as [|s r], l' as [|s' r']; simpl; try discriminate; auto.
  intros H1 H2. injection H1 as A1 B1. injection H2 as A2 B2.
  rewrite !(fold_left_map Z.max slot_hi), !(fold_left_map Z.min slot_lo), A1, A2, B1, B2. reflexivity.
Qed.
Lemma size_compose_map_slot f l : size (ECompose (map (map_slot f) l)) = size (ECompose l).
Proof. apply size_compose_maps; rewrite map_map; reflexivity. Qed.

Lemma Forall2_maps {A B C} (R : A -> B -> Prop) (f : A -> C) (g : B -> C) l l' :
  Forall2 R l l' -> (forall a b, R a b -> g b = f a) -> map g l' = map f l.
Proof. intros F H. induction F as [|a b l l' Hab _ IH]; cbn [map]; [reflexivity | rewrite IH, (H a b Hab); reflexivity]. Qed.

Lemma size_op_heads op l op' l' :
  map size l = map size l' -> size (EOp op l) = size (EOp op' l').
Proof.
  destruct l as [|a [|b r]], l' as [|a' [|b' r']]; simpl; try discriminate; auto;
    intros H; injection H; intros; subst; repeat match goal with E : size _ = size _ |- _ => rewrite E; clear E end; reflexivity.
Qed.
Lemma size_op_map f op l : Forall (fun a => size (f a) = size a) l -> size (EOp op (map f l)) = size (EOp op l).
Proof. intros H. apply size_op_heads. rewrite map_map. apply map_ext_Forall, H. Qed.
Lemma size_op1 op a : size (EOp op [a]) = size a.
Proof. cbn [size]. destruct (size a =? 0); reflexivity. Qed.
Lemma size_op op a l : size a <> 0 -> size (EOp op (a :: l)) = size a.
Proof. intros H. apply Z.eqb_neq in H. cbn [size]. rewrite H. reflexivity. Qed.

Lemma size_erase : forall e, size (erase e) = size e.
Proof.
  induction e using expr_ind'; cbn [erase]; try (simpl; congruence).
  - apply size_op_map, H.
  - apply size_compose_map_slot.
Qed.

Lemma size_eqb : forall x y, expr_eqb x y = true -> size x = size y.
Proof. exact (eqb_congr size size_erase). Qed.

Section EvalLaws.
  Variable rho : string -> Z.
  Variable mu : Z -> Z.
  Variable iota : string -> list Z -> Z.
  Notation ev := (eval rho mu iota).

  Definition slot_val (s : slot) : Z := Z.shiftl (wrap (slot_hi s - slot_lo s) (ev (slot_e s))) (slot_lo s).
  Lemma eval_compose l : ev (ECompose l) = fold_left Z.lor (map slot_val l) 0.
  Proof. exact (fold_left_map Z.lor slot_val l 0). Qed.
  Lemma eval_op_node op l : ev (EOp op l) = eval_op iota op (size (EOp op l)) (map ev l).
  Proof. reflexivity. Qed.
  Lemma ev_op op a l : size a <> 0 -> ev (EOp op (a :: l)) = eval_op iota op (size a) (ev a :: map ev l).
  Proof. intros H. rewrite eval_op_node, size_op by exact H. reflexivity. Qed.
  Lemma ev_op1 op a : ev (EOp op [a]) = eval_op iota op (size a) [ev a].
  Proof. rewrite eval_op_node, size_op1. reflexivity. Qed.
  Lemma ev_neg a : ev (EOp "-" [a]) = wrap (size a) (- ev a).
  Proof. apply ev_op1. Qed.
  Lemma ev_cond c a b : ev (ECond c a b) = if ev c =? 0 then ev b else ev a.
  Proof. reflexivity. Qed.
  Lemma ev_slice e lo hi : ev (ESlice e lo hi) = wrap (hi - lo) (Z.shiftr (ev e) lo).
  Proof. reflexivity. Qed.

  Definition same (x y : expr) : Prop := size x = size y /\ ev x = ev y.

  Lemma same_op f op l : Forall (fun a => same (f a) a) l -> same (EOp op (map f l)) (EOp op l).
  Proof.
    intros H. assert (S : size (EOp op (map f l)) = size (EOp op l)).
    { apply size_op_map. eapply Forall_impl; [|exact H]. intros a [Sa _]. exact Sa. }
    split; [exact S|]. rewrite !eval_op_node, S, map_map. f_equal.
    apply map_ext_Forall. eapply Forall_impl; [|exact H]. intros a [_ Va]. exact Va.
  Qed.

  Lemma same_compose f l : Forall (fun s => ev (f (slot_e s)) = ev (slot_e s)) l ->
    same (ECompose (map (map_slot f) l)) (ECompose l).
  Proof.
    intros H. split; [apply size_compose_map_slot|]. rewrite !eval_compose, map_map. f_equal.
    apply map_ext_Forall. eapply Forall_impl; [|exact H]. intros s E. unfold slot_val. change (slot_e (map_slot f s)) with (f (slot_e s)). rewrite E. reflexivity.
  Qed.

  Lemma eval_erase : forall e, ev (erase e) = ev e.
  Proof.
    induction e using expr_ind'; cbn [erase]; try (simpl; congruence).
    - apply same_op. eapply Forall_impl; [|exact H]. intros a Va. split; [apply size_erase | exact Va].
    - simpl. rewrite IHe1, IHe2, IHe3. reflexivity.
    - apply same_compose, H.
  Qed.

  Lemma eval_eqb : forall x y, expr_eqb x y = true -> ev x = ev y.
  Proof. exact (eqb_congr ev eval_erase). Qed.
End EvalLaws.

Section HashLaws.
  Variable hs : string -> Z.
  Variable hi : Z -> Z.
  Variable hnone : Z.
  Notation hh := (hash hs hi hnone).
  Lemma hash_op op l : hh (EOp op l) = fold_left Z.lxor (map hh l) (hs op).
  Proof. exact (fold_left_map Z.lxor hh l (hs op)). Qed.
  Definition slot_hash (s : slot) : Z := Z.lxor (Z.lxor (hh (slot_e s)) (hi (slot_lo s))) (hi (slot_hi s)).
  Lemma hash_compose l : hh (ECompose l) = fold_left Z.lxor (map slot_hash l) 0.
  Proof. exact (fold_left_map Z.lxor slot_hash l 0). Qed.

  Lemma hash_erase : forall e, hh (erase e) = hh e.
  Proof.
    induction e using expr_ind'; cbn [erase]; try (simpl; congruence).
    - simpl. rewrite IHe. destruct s; simpl in *; congruence.
    - rewrite !hash_op, map_map. f_equal. apply map_ext_Forall, H.
    - rewrite !hash_compose, map_map. f_equal. apply map_ext_Forall.
      eapply Forall_impl; [|exact H]. intros s E. unfold slot_hash. change (slot_e (map_slot erase s)) with (erase (slot_e s)). rewrite E. reflexivity.
  Qed.

  Lemma hash_eqb : forall x y, expr_eqb x y = true -> hh x = hh y.
  Proof. exact (eqb_congr hh hash_erase). Qed.
End HashLaws.

Ltac destr_if := match goal with |- context[if ?c then _ else _] => destruct c end.

Lemma copy_id : forall e, copy e = e.
Proof.
  induction e using expr_ind'; simpl; try congruence.
  - rewrite IHe. destruct s; simpl in *; congruence.
  - rewrite map_id_Forall; auto.
  - f_equal. apply map_slot_id, H.
Qed.

Lemma visit_id : forall e, visit (fun x => x) e = e.
Proof.
  induction e using expr_ind'; simpl; auto.
  - rewrite IHe. destruct s; simpl in *.
    + rewrite H. destr_if; reflexivity.
    + destr_if; reflexivity.
  - rewrite (map_id_Forall _ _ H). destr_if; reflexivity.
  - rewrite IHe1, IHe2, IHe3. destr_if; reflexivity.
  - rewrite IHe. destr_if; reflexivity.
  - destr_if; [reflexivity | f_equal; apply map_slot_id, H].
  - rewrite IHe1, IHe2. destr_if; reflexivity.
Qed.

(** visit(cb) preserves size and value whenever cb does: replace_expr below, and the skeleton of expr_simp *)
Section VisitPreserves.
  Variable rho : string -> Z.
  Variable mu : Z -> Z.
  Variable iota : string -> list Z -> Z.
  Notation ev := (eval rho mu iota).
  Notation same := (same rho mu iota).
  Variable cb : expr -> expr.
  Hypothesis cb_ok : forall x, size (cb x) = size x /\ ev (cb x) = ev x.

  Lemma visit_preserves : forall e, same (visit cb e) e.
  Proof.
    assert (K : forall n e, same n e -> same (cb n) e).
    { intros n e [A B]. destruct (cb_ok n) as [C D]. split; congruence. }
    assert (I : forall (c : bool) n e, same n e -> same (if c then e else n) e).
    { intros [|] n e N; [split; reflexivity | exact N]. }
    induction e using expr_ind'; simpl; apply K; try (split; reflexivity); apply I.
    - destruct IHe as [A B]. split; simpl; [reflexivity | rewrite B; reflexivity].
    - apply same_op, H.
    - destruct IHe1 as [A1 B1], IHe2 as [A2 B2], IHe3 as [A3 B3].
      split; simpl; [congruence | rewrite B1, B2, B3; reflexivity].
    - destruct IHe as [A B]. split; simpl; [congruence | rewrite B; reflexivity].
    - apply same_compose. eapply Forall_impl; [|exact H]. intros s [_ V]. exact V.
    - destruct IHe1 as [A1 B1], IHe2 as [A2 B2]. split; simpl; [congruence | rewrite ?B1, ?B2; reflexivity].
  Qed.
End VisitPreserves.

Section Replace.
  Variable rho : string -> Z.
  Variable mu : Z -> Z.
  Variable iota : string -> list Z -> Z.
  Notation ev := (eval rho mu iota).

  Lemma dict_get_in d e v : dict_get d e = Some v -> exists k, In (k, v) d /\ expr_eqb k e = true.
  Proof.
    induction d as [|[k0 v0] d IH]; simpl; try discriminate.
    destruct (expr_eqb k0 e) eqn:E.
    - intros H; inversion H; subst. exists k0. auto.
    - intros H. destruct (IH H) as [k [A B]]. exists k. auto.
  Qed.

  Theorem replace_congruence d :
    (forall k v, In (k, v) d -> size k = size v /\ ev k = ev v) ->
    forall e, size (replace_expr d e) = size e /\ ev (replace_expr d e) = ev e.
  Proof.
    intros Hd e. apply visit_preserves. intros x. unfold replace_cb.
    destruct (dict_get d x) eqn:G; [|split; reflexivity].
    destruct (dict_get_in _ _ _ G) as [k [I E]]. destruct (Hd _ _ I) as [A B].
    rewrite <- A, <- B. split; [apply size_eqb | apply eval_eqb]; assumption.
  Qed.
End Replace.

(** Read sets: the value depends only on what get_r reports (C16) *)
Definition InR (x : expr) (l : list expr) : Prop := mem_eqb x l = true.

Lemma mem_eqb_app x l l' : mem_eqb x (l ++ l') = mem_eqb x l || mem_eqb x l'.
Proof. induction l; simpl; auto. rewrite IHl, orb_assoc. reflexivity. Qed.

Lemma InR_set_add_l x e l : InR x l -> InR x (set_add e l).
Proof. unfold InR, set_add. intros H. destruct (mem_eqb e l); auto. rewrite mem_eqb_app, H. reflexivity. Qed.
Lemma InR_set_add_self e l : InR e (set_add e l).
Proof.
  unfold InR, set_add. destruct (mem_eqb e l) eqn:E; auto.
  rewrite mem_eqb_app. simpl. rewrite eqb_refl, orb_true_r. reflexivity.
Qed.
Lemma InR_union_l x a b : InR x a -> InR x (set_union a b).
Proof. unfold set_union. revert a. induction b; simpl; auto. intros a0 H. apply IHb. apply InR_set_add_l. assumption. Qed.
Lemma InR_eqb x y l : expr_eqb y x = true -> InR y l -> InR x l.
Proof.
  unfold InR. intros E. induction l as [|z l IH]; simpl; [discriminate|].
  rewrite !orb_true_iff. intros [H|H]; [left; exact (eqb_trans z y x H E) | right; exact (IH H)].
Qed.
Lemma InR_union_r x a b : InR x b -> InR x (set_union a b).
Proof.
  revert a. induction b as [|y b IH]; intros a H; [discriminate|].
  apply orb_true_iff in H as [H|H].
  - apply (InR_union_l x (set_add y a) b), (InR_eqb x y); [exact H | apply InR_set_add_self].
  - apply (IH (set_add y a)), H.
Qed.
Lemma InR_fold_init {A} (f : A -> list expr) x l init :
  InR x init -> InR x (fold_left (fun acc a => set_union acc (f a)) l init).
Proof. revert init. induction l; simpl; auto. intros init H. apply IHl. apply InR_union_l. assumption. Qed.
Lemma InR_fold_in {A} (f : A -> list expr) x l init a :
  In a l -> InR x (f a) -> InR x (fold_left (fun acc a => set_union acc (f a)) l init).
Proof.
  revert init. induction l as [|b l IH]; simpl; intros init I H; [contradiction|]. destruct I as [E|I].
  - subst. apply InR_fold_init. apply InR_union_r. assumption.
  - apply IH; assumption.
Qed.

Section Coincidence.
  Variables rho rho' : string -> Z.
  Variables mu mu' : Z -> Z.
  Variable iota : string -> list Z -> Z.
  Notation ev := (eval rho mu iota).
  Notation ev' := (eval rho' mu' iota).

  (** what it means for the two states to agree on a reported atom.  With memory reads requested a
      cell is the bytes at its (already agreed) address; without, the whole cell is an opaque atom. *)
  Definition agree (f : bool) (x : expr) : Prop :=
    match x with
    | EId n _ _ _ => rho n = rho' n
    | EMem a w _ => if f then mem_read mu (ev a) w = mem_read mu' (ev a) w else ev x = ev' x
    | _ => True
    end.

  Theorem get_r_coincidence f : forall e,
    (forall x, InR x (get_r f e) -> agree f x) -> ev e = ev' e.
  Proof.
    induction e using expr_ind'; intros Hag.
    - reflexivity.
    - simpl. assert (A := Hag (EId n w r t)). simpl in A. rewrite A; [reflexivity | exact (InR_set_add_self _ [])].
    - destruct f.
      + assert (ev e = ev' e) as Ea.
        { apply IHe. intros x Hx. apply Hag. simpl. apply InR_set_add_l. assumption. }
        assert (A := Hag (EMem e w s)). simpl in A.
        simpl. rewrite <- Ea. apply A. apply InR_set_add_self.
      + assert (A := Hag (EMem e w s)). apply A. exact (InR_set_add_self _ []).
    - rewrite !eval_op_node. f_equal. apply map_ext_in. intros a Ia.
      apply (proj1 (Forall_forall _ _) H a Ia). intros x Hx. apply Hag.
      exact (InR_fold_in (get_r f) x args [] a Ia Hx).
    - simpl in *. rewrite IHe1, IHe2, IHe3; auto; intros x Hx; apply Hag.
      + apply InR_union_r; assumption.
      + apply InR_union_l, InR_union_r; assumption.
      + apply InR_union_l, InR_union_l; assumption.
    - simpl in *. rewrite IHe; auto.
    - rewrite !eval_compose. f_equal. apply map_ext_in. intros s Is. unfold slot_val.
      rewrite (proj1 (Forall_forall _ _) H s Is); [reflexivity|]. intros x Hx. apply Hag.
      exact (InR_fold_in (fun s => get_r f (slot_e s)) x args [] s Is Hx).
    - simpl. apply IHe2. intros x Hx. apply Hag. simpl. destruct e1; try assumption. apply InR_union_l. assumption.
  Qed.
End Coincidence.

(** occurrence of an identifier name in a tree, stated for its own sake: no lemma here relates it to get_expr_ids *)
Fixpoint occurs_id (n : string) (e : expr) : bool :=
  match e with
  | EInt _ _ _ => false
  | EId n' _ _ _ => (n =? n')%string
  | EMem a _ s => occurs_id n a || match s with Some u => occurs_id n u | None => false end
  | EOp _ args => existsb (occurs_id n) args
  | ECond c a b => occurs_id n c || occurs_id n a || occurs_id n b
  | ESlice e1 _ _ => occurs_id n e1
  | ECompose args => existsb (fun s => occurs_id n (slot_e s)) args
  | EAff d s => occurs_id n d || occurs_id n s
  end.

Definition reads (l : list expr) : list expr := fold_left (fun acc a => set_union acc (get_r true a)) l [].
Lemma InR_reads_in a l x : In a l -> InR x (get_r true a) -> InR x (reads l).
Proof. intros I H. unfold reads. exact (InR_fold_in (get_r true) x l [] a I H). Qed.
Lemma reads_coincidence rho rho' mu mu' iota l :
  (forall x, InR x (reads l) -> agree rho rho' mu mu' iota true x) ->
  map (eval rho mu iota) l = map (eval rho' mu' iota) l.
Proof.
  intros H. apply map_ext_in. intros a Ia.
  apply (get_r_coincidence rho rho' mu mu' iota true). intros x Hx. apply H. exact (InR_reads_in a l x Ia Hx).
Qed.
