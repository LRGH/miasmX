(** SemRcProofs.v — rcl / rcr: the value and the new carry the lifter writes (the named operators <<<c_rez, <<<c_cf, >>>c_rez, >>>c_cf, read
    by Expr.rc_op) are the upper n bits and the low bit of the (n+1)-bit ring  operand : cf  (operand in bits 1..n, carry in bit 0)
    rotated by (count & 31) — the processor's rotate-through-carry — stated bit by bit for all operands and states. *)
From Coq Require Import ZArith List Bool String Lia.
From Mx Require Import Expr ExprProofs Bits RotLemmas Sem SemProofs SemShiftFlags.
Import ListNotations.
Open Scope Z_scope.

Definition ring (w a f : Z) : Z := Z.lor (Z.shiftl (wrap w a) 1) (wrap 1 f).
Lemma rc_ring_left w a c f : rc_ring true w a c f = rol (w + 1) (ring w a f) (Z.land c 31).
Proof. reflexivity. Qed.
Lemma rc_ring_right w a c f : rc_ring false w a c f = ror (w + 1) (ring w a f) (Z.land c 31).
Proof. reflexivity. Qed.
Lemma ring_range w a f : 0 < w -> 0 <= ring w a f < 2 ^ (w + 1).
Proof.
  intros Hw. pose proof (wrap_range w a ltac:(lia)). pose proof (wrap_range 1 f ltac:(lia)) as R1. change (2 ^ 1) with 2 in R1.
  assert (P : 2 ^ (w + 1) = 2 ^ w * 2) by (apply Z.pow_add_r; lia).
  apply lor_lt_pow2; [lia | rewrite Z.shiftl_mul_pow2 by lia; change (2 ^ 1) with 2; lia | lia].
Qed.
(** bit 0 of the ring is the carry, bit i + 1 is bit i of the operand *)
Lemma ring_bit0 w a f : Z.testbit (ring w a f) 0 = Z.odd f.
Proof. unfold ring. rewrite Z.lor_spec, Z.shiftl_spec_low, wrap1_odd by lia. destruct (Z.odd f); reflexivity. Qed.
Lemma ring_bit_succ w a f i : 0 <= i -> Z.testbit (ring w a f) (i + 1) = Z.testbit (wrap w a) i.
Proof.
  intros Hi. pose proof (wrap_range 1 f ltac:(lia)). unfold ring. rewrite Z.lor_spec, Z.shiftl_spec, (bits_above (wrap 1 f) 1) by lia.
  rewrite orb_false_r. f_equal. lia.
Qed.

Section Meaning.
  Variable rho : string -> Z.
  Variable mu : Z -> Z.
  Variable iota : string -> list Z -> Z.
  Notation ev := (eval rho mu iota).
  Variables a b : expr.
  Hypothesis Oa : operand_ok a = true.
  Let n := size a.
  Let Pa := proj1 (operand_range rho mu iota a Oa).
  Definition rc_count : Z := Z.land (ev b) 31.
  Definition the_ring : Z := ring n (ev a) (ev cf).

  (** the carry written is bit 0 of the rotated ring r, the value its bits 1 .. n *)
  Lemma size_rc op : size (EOp op [a; b; cf]) = n.
  Proof. apply size_op. pose proof Pa. lia. Qed.
  Lemma rc_carry op r : opk_of op = OOther -> rc_op op n [ev a; ev b; ev cf] = Some (Z.land r 1) -> ev (EOp op [a; b; cf]) = Z.b2z (Z.testbit r 0).
  Proof. intros K R. rewrite (ev_rc rho mu iota op [a; b; cf] _ K), size_rc, land1_bit0 by (rewrite size_rc; exact R). apply wrap_b2z, Pa. Qed.
  Lemma rc_value op r : opk_of op = OOther -> rc_op op n [ev a; ev b; ev cf] = Some (Z.shiftr r 1) ->
    forall i, 0 <= i < n -> Z.testbit (ev (EOp op [a; b; cf])) i = Z.testbit r (i + 1).
  Proof. intros K R i Hi. rewrite (ev_rc rho mu iota op [a; b; cf] _ K), size_rc, testbit_wrap, Z.shiftr_spec by (rewrite ?size_rc; exact R || lia). reflexivity. Qed.

  Theorem rcl_bits : let R := rol (n + 1) the_ring rc_count in
    ev (EOp "<<<c_cf" [a; b; cf]) = Z.b2z (Z.testbit R 0) /\
    (forall i, 0 <= i < n -> Z.testbit (ev (EOp "<<<c_rez" [a; b; cf])) i = Z.testbit R (i + 1)) /\
    (forall j, 0 <= j < n + 1 -> Z.testbit R j = Z.testbit the_ring ((j - rc_count) mod (n + 1))).
  Proof.
    intros R. fold n in Pa. pose proof (ring_range n (ev a) (ev cf) Pa) as Rr. fold the_ring in Rr.
    assert (E : rc_ring true n (ev a) (ev b) (ev cf) = R) by apply rc_ring_left.
    split; [apply rc_carry; [|rewrite <- E]; reflexivity | split; [apply rc_value; [|rewrite <- E]; reflexivity | intros j Hj; apply rol_bits; lia]].
  Qed.
  Theorem rcr_bits : let R := ror (n + 1) the_ring rc_count in
    ev (EOp ">>>c_cf" [a; b; cf]) = Z.b2z (Z.testbit R 0) /\
    (forall i, 0 <= i < n -> Z.testbit (ev (EOp ">>>c_rez" [a; b; cf])) i = Z.testbit R (i + 1)) /\
    (forall j, 0 <= j < n + 1 -> Z.testbit R j = Z.testbit the_ring ((j + rc_count) mod (n + 1))).
  Proof.
    intros R. fold n in Pa. pose proof (ring_range n (ev a) (ev cf) Pa) as Rr. fold the_ring in Rr.
    assert (E : rc_ring false n (ev a) (ev b) (ev cf) = R) by apply rc_ring_right.
    split; [apply rc_carry; [|rewrite <- E]; reflexivity | split; [apply rc_value; [|rewrite <- E]; reflexivity | intros j Hj; apply ror_bits; lia]].
  Qed.
  Theorem ring_layout : Z.testbit the_ring 0 = Z.odd (rho "cf") /\ forall i, 0 <= i < n -> Z.testbit the_ring (i + 1) = Z.testbit (ev a) i.
  Proof.
    unfold the_ring. split; [rewrite ring_bit0; unfold cf; rewrite ev_flag; destruct (Z.odd (rho "cf")); reflexivity|].
    intros i Hi. rewrite ring_bit_succ by lia. apply testbit_wrap, Hi.
  Qed.
End Meaning.
