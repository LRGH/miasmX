(** RotLemmas.v — bit-vector facts behind the rotation rules of the simplifier (C05): a rotation moves bit i to bit i + c modulo the
    width; rotations compose by adding their counts; a count may be reduced modulo any multiple of the width. *)
From Coq Require Import ZArith List Bool Lia.
From Mx Require Import Expr Bits.
Open Scope Z_scope.

Lemma rol_range w x c : 0 < w -> 0 <= rol w x c < 2 ^ w.
Proof. intros Hw. apply wrap_range. lia. Qed.
Lemma rol_bits w x c i : 0 <= x < 2 ^ w -> 0 <= i < w -> Z.testbit (rol w x c) i = Z.testbit x ((i - c) mod w).
Proof.
  intros Hx Hi. unfold rol. cbv zeta. set (r := c mod w). assert (Rr : 0 <= r < w) by (apply Z.mod_pos_bound; lia).
  assert (E : (i - c) mod w = (i - r) mod w) by (unfold r; rewrite Zminus_mod_idemp_r; reflexivity). rewrite E.
  unfold wrap. rewrite Z.mod_pow2_bits_low by lia. rewrite Z.lor_spec, Z.shiftr_spec by lia.
  destruct (Z_lt_le_dec i r) as [L|L].
  - rewrite Z.shiftl_spec_low by lia. cbn [orb]. f_equal. apply (Z.mod_unique_pos _ _ (-1)); lia.
  - rewrite Z.shiftl_spec by lia. rewrite (bits_above x w (i + (w - r))) by lia. rewrite orb_false_r. f_equal. symmetry. apply Z.mod_small. lia.
Qed.
Lemma rol_0 w x : 0 < w -> 0 <= x < 2 ^ w -> rol w x 0 = x.
Proof.
  intros Hw Hx. apply (eq_by_bits w); [lia | apply rol_range; lia | exact Hx|]. intros i Hi. rewrite rol_bits by lia. f_equal. rewrite Z.sub_0_r. apply Z.mod_small. lia.
Qed.
Lemma rol_rol w x c d : 0 < w -> 0 <= x < 2 ^ w -> rol w (rol w x c) d = rol w x (c + d).
Proof.
  intros Hw Hx. apply (eq_by_bits w); [lia | apply rol_range; lia | apply rol_range; lia|]. intros i Hi.
  rewrite rol_bits by (try apply rol_range; lia). rewrite rol_bits by (try apply Z.mod_pos_bound; lia). rewrite rol_bits by lia.
  f_equal. rewrite Zminus_mod_idemp_l. f_equal. lia.
Qed.
(** a rotation to the right is one to the left by the opposite count, so the facts about [rol] serve both *)
Lemma ror_as_rol w x c : 0 < w -> 0 <= x < 2 ^ w -> ror w x c = rol w x (- c).
Proof.
  intros Hw Hx. unfold ror, rol. cbv zeta. destruct (Z.eq_dec (c mod w) 0) as [E|E].
  - (* count 0: the two differ in the part shifted by the whole width, which lies above bit w or is 0 *)
    rewrite (Z.mod_opp_l_z c w), E, Z.sub_0_r, Z.shiftl_0_r, Z.shiftr_0_r by lia.
    apply wrap_eq_bits; [lia|]. intros i Hi. rewrite !Z.lor_spec, Z.shiftl_spec_low, Z.shiftr_spec, (bits_above x w (i + w)) by lia. reflexivity.
  - rewrite (Z.mod_opp_l_nz c w) by lia. replace (w - (w - c mod w)) with (c mod w) by lia. rewrite Z.lor_comm. reflexivity.
Qed.
Lemma ror_bits w x c i : 0 <= x < 2 ^ w -> 0 <= i < w -> Z.testbit (ror w x c) i = Z.testbit x ((i + c) mod w).
Proof. intros Hx Hi. rewrite ror_as_rol, rol_bits by lia. f_equal. f_equal. lia. Qed.
Lemma ror_0 w x : 0 < w -> 0 <= x < 2 ^ w -> ror w x 0 = x.
Proof. intros Hw Hx. rewrite ror_as_rol by lia. exact (rol_0 w x Hw Hx). Qed.
Lemma ror_ror w x c d : 0 < w -> 0 <= x < 2 ^ w -> ror w (ror w x c) d = ror w x (c + d).
Proof.
  intros Hw Hx. rewrite (ror_as_rol w x c), (ror_as_rol w _ d), rol_rol, (ror_as_rol w x (c + d)) by (try apply rol_range; lia). f_equal. lia.
Qed.
Lemma ror_rol w x c d : 0 < w -> 0 <= x < 2 ^ w -> ror w (rol w x c) d = rol w x (c - d).
Proof. intros Hw Hx. rewrite (ror_as_rol w _ d), rol_rol by (try apply rol_range; lia). reflexivity. Qed.
Lemma rol_ror w x c d : 0 < w -> 0 <= x < 2 ^ w -> rol w (ror w x c) d = ror w x (c - d).
Proof.
  intros Hw Hx. rewrite (ror_as_rol w x c), rol_rol, (ror_as_rol w x (c - d)) by lia. f_equal. lia.
Qed.
Lemma rol_cong w x c c' : c mod w = c' mod w -> rol w x c = rol w x c'.
Proof. intros E. unfold rol. cbv zeta. rewrite E. reflexivity. Qed.
Lemma ror_cong w x c c' : c mod w = c' mod w -> ror w x c = ror w x c'.
Proof. intros E. unfold ror. cbv zeta. rewrite E. reflexivity. Qed.
Lemma rol_mod w x c : 0 < w -> rol w x (c mod w) = rol w x c.
Proof. intros Hw. apply rol_cong, Z.mod_mod. lia. Qed.
Lemma ror_mod w x c : 0 < w -> ror w x (c mod w) = ror w x c.
Proof. intros Hw. apply ror_cong, Z.mod_mod. lia. Qed.
Lemma mod_mod_divides a m w : 0 < w -> 0 < m -> (w | m) -> (a mod m) mod w = a mod w.
Proof. intros Hw Hm D. symmetry. apply Znumtheory.Zmod_div_mod; assumption. Qed.
(** the simplifier adds 8-bit counts modulo 2^8: under a width that divides 2^8 the rotation sees their sum or difference *)
Lemma count_sum_mod n a b : 0 < n -> (n | 2 ^ 8) -> (wrap 8 (a + b)) mod n = (a + b) mod n.
Proof. intros Hn D. unfold wrap. apply mod_mod_divides; [exact Hn | reflexivity | exact D]. Qed.
Lemma count_diff_mod n a b : 0 < n -> (n | 2 ^ 8) -> (wrap 8 (a + wrap 8 (- b))) mod n = (a - b) mod n.
Proof.
  intros Hn D. unfold wrap. rewrite Zplus_mod_idemp_r. rewrite (mod_mod_divides _ (2 ^ 8) n Hn eq_refl D). reflexivity.
Qed.
