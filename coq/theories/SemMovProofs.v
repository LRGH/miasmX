(** SemMovProofs.v — what the data-movement mirror of SemMov.v means, for all operand expressions and all states. *)
From Coq Require Import ZArith List Bool String Lia.
From Mx Require Import Expr ExprProofs Bits Sem SemProofs SemMov.
Import ListNotations.
Open Scope Z_scope.

Lemma is_mirror_mv_sound k args l : is_mirror_mv k args l = true ->
  exists m, mirror_mv k args = Some m /\ forall rho mu iota, map (eval rho mu iota) l = map (eval rho mu iota) m.
Proof.
  unfold is_mirror_mv. destruct (mirror_mv k args) as [m|]; [|discriminate]. intros H. exists m. split; [reflexivity|].
  intros rho mu iota. apply list_expr_eqb_eval. exact H.
Qed.

Section Meaning.
  Variable rho : string -> Z.
  Variable mu : Z -> Z.
  Variable iota : string -> list Z -> Z.
  Notation ev := (eval rho mu iota).

  (** movzx: the value is the source's *)
  Theorem zext_value a b : operand_ok b = true -> size b < size a -> ev (zext_src a b) = ev b.
  Proof.
    intros Ob _. unfold zext_src. rewrite ev_zext by reflexivity. apply wrap_small, operand_range, Ob.
  Qed.

  (** movsx: below the source width the source's bits, above it copies of its sign bit *)
  Theorem sext_bits a b : operand_ok b = true -> size b < size a -> size a - size b <= 32 -> forall i, 0 <= i ->
    Z.testbit (ev (sext_src a b)) i = if i <? size b then Z.testbit (ev b) i else (i <? size a) && Z.testbit (ev b) (size b - 1).
  Proof.
    intros Ob L L32 i Hi. destruct (operand_range rho mu iota b Ob) as [Pb Rb]. unfold sext_src. rewrite eval_compose. cbn [map fold_left].
    unfold slot_val, slot_e, slot_lo, slot_hi. cbn [fst snd].
    rewrite !Z.lor_spec, Z.bits_0, !testbit_slot, ev_cond, ev_msb by lia. replace (size b + (size a - size b)) with (size a) by lia.
    rewrite !Z.sub_0_r, Z.add_0_l. cbn [orb]. destruct (Z.ltb_spec i (size b)) as [M|M].
    - rewrite (proj2 (Z.leb_le 0 i) Hi), (proj2 (Z.leb_gt (size b) i) M). apply orb_false_r.
    - rewrite (bits_above _ _ i Rb M), (proj2 (Z.leb_le (size b) i) M), andb_false_r. cbn [orb andb].
      destruct (Z.ltb_spec i (size a)) as [N|N]; [|reflexivity]. cbn [andb].
      destruct (Z.testbit (ev b) (size b - 1)); cbn [Z.b2z Z.eqb]; [|apply Z.bits_0].
      change (ev (EInt false 32 4294967295)) with (Z.ones 32). apply Z.ones_spec_low. lia.
  Qed.

  (** not: the one's complement *)
  Theorem not_value b : operand_ok b = true -> ev (e_not b) = 2 ^ size b - 1 - ev b.
  Proof.
    intros Ob. destruct (operand_range rho mu iota b Ob) as [Pb Rb]. transitivity (wrap (size b) (Z.lnot (ev b))).
    - unfold e_not. rewrite ev_xor, ev_ones by lia. apply wrap_eq_bits; [lia|]. intros i Hi.
      rewrite Z.lxor_spec, Z.lnot_spec, Z.ones_spec_low by lia. apply xorb_true_r.
    - apply (wrap_unique _ _ _ (-1)); [|unfold Z.lnot]; lia.
  Qed.

  (** push / pop: the stack pointer moves by the operand size, modulo 2^32 *)
  Theorem esp_minus k : ev (EOp "-" [esp; EInt false 32 k]) = (rho "esp" - k) mod 2 ^ 32.
  Proof. rewrite ev_sub by discriminate. symmetry. apply Zminus_mod. Qed.
  Theorem esp_plus k : ev (EOp "+" [esp; EInt false 32 k]) = (rho "esp" + k) mod 2 ^ 32.
  Proof. rewrite ev_add by discriminate. symmetry. apply Zplus_mod. Qed.
  Theorem cmc_value : ev (ECond (flag "cf") (i1 0) (i1 1)) = 1 - wrap 1 (rho "cf").
  Proof. rewrite ev_cond, ev_flag, wrap1_odd. destruct (Z.odd (rho "cf")); reflexivity. Qed.
End Meaning.

(** pop with a memory destination addressed through esp: the address is computed with the INCREMENTED stack pointer
    (SDM, POP: "the POP ESP / POP m with ESP as base computes the effective address after the increment") *)
Fixpoint addr_shape (e : expr) : bool :=
  match e with
  | EInt _ _ _ => true
  | EId n _ _ _ => negb (n =? "esp")%string || expr_eqb e esp
  | EOp _ args => forallb addr_shape args
  | _ => false
  end.
Lemma eqb_esp n w r t : expr_eqb (EId n w r t) esp = true -> n = "esp"%string /\ w = 32.
Proof. unfold esp. rewrite eqb_id, !andb_true_iff, String.eqb_eq, Z.eqb_eq. tauto. Qed.
Lemma size_subst_esp n : size n = 32 -> forall e, size (subst_esp n e) = size e.
Proof.
  intros Hn. induction e using expr_ind'; try reflexivity.
  - cbn [subst_esp]. destruct (expr_eqb (EId n0 w r t) esp) eqn:E; [|reflexivity]. destruct (eqb_esp _ _ _ _ E) as [_ ->]. exact Hn.
  - cbn [subst_esp]. destruct H as [|a l Ha Hl]; [reflexivity|]. cbn [map size]. rewrite Ha.
    destruct (size a =? 0); [|reflexivity]. inversion Hl as [|b l' Hb Hl']; subst; [reflexivity|]. cbn [map]. exact Hb.
Qed.
Theorem subst_esp_eval rho mu iota n : size n = 32 -> 0 <= eval rho mu iota n < 2 ^ 32 -> forall e, addr_shape e = true ->
  eval rho mu iota (subst_esp n e) = eval (fun x => if (x =? "esp")%string then eval rho mu iota n else rho x) mu iota e.
Proof.
  intros Hn Rn. induction e using expr_ind'; intros A; try discriminate.
  - reflexivity.
  - cbn [subst_esp]. destruct (expr_eqb (EId n0 w r t) esp) eqn:E.
    + destruct (eqb_esp _ _ _ _ E) as [-> ->]. cbn [eval]. rewrite String.eqb_refl. symmetry. apply wrap_small, Rn.
    + cbn [addr_shape] in A. rewrite E, orb_false_r in A. apply negb_true_iff in A. cbn [eval]. rewrite A. reflexivity.
  - pose proof (size_subst_esp n Hn (EOp op args)) as Sz. cbn [subst_esp] in Sz |- *. rewrite !eval_op_node. rewrite Sz. f_equal. clear Sz.
    cbn [addr_shape] in A. rewrite map_map. induction H as [|a l Ha Hl IH]; [reflexivity|]. cbn [forallb] in A. apply andb_true_iff in A as [A1 A2].
    cbn [map]. rewrite (Ha A1), (IH A2). reflexivity.
Qed.
