(** SemShiftFlagsProofs.v — the carry flag of shl / shr / sar as written by the lifter: count 0 keeps cf, otherwise cf receives the last bit
    shifted out; and the carry flag of rol / ror, the low / top bit of the rotated value — for all operand expressions and all states. *)
From Coq Require Import ZArith List Bool String Lia.
From Mx Require Import Expr ExprProofs Bits Sem SemProofs SemShift SemShiftProofs SemShiftFlags.
Import ListNotations.
Open Scope Z_scope.

Lemma is_shf_mirror_sound k args l : is_shf_mirror k args l = true ->
  exists a b, args = [a; b] /\ operand_ok a = true /\ operand_ok b = true /\ (size a = 8 \/ size a = 16 \/ size a = 32) /\
    forall rho mu iota, map (eval rho mu iota) l = map (eval rho mu iota) (mirror_shf k a b).
Proof.
  unfold is_shf_mirror. destruct args as [|a [|b [|? ?]]]; try discriminate.
  rewrite !andb_true_iff. intros [[[Oa Ob] S] E]. exists a, b. repeat split; try assumption.
  - apply width_cases, S.
  - intros rho mu iota. apply list_expr_eqb_eval. exact E.
Qed.

Section Meaning.
  Variable rho : string -> Z.
  Variable mu : Z -> Z.
  Variable iota : string -> list Z -> Z.
  Notation ev := (eval rho mu iota).
  Variables a b : expr.
  Variable k : Z.
  Hypothesis Oa : operand_ok a = true.
  Hypothesis Sa : size a = 8 \/ size a = 16 \/ size a = 32.
  Hypothesis Sb : size b = 8 \/ size b = 16 \/ size b = 32.
  Hypothesis Ek : ev b mod 32 = k.
  Let Kv : ev (masked_count b) = k.
  Proof. rewrite <- Ek. exact (count_value rho mu iota b Sb). Qed.
  Let Kr : 0 <= k < 32.
  Proof. rewrite <- Ek. apply Z.mod_pos_bound. lia. Qed.
  Let B32 : 32 < 2 ^ size b := width_holds_32 _ Sb.
  Let Pa := proj1 (operand_range rho mu iota a Oa).

  Theorem cf_kept_or_new new_cf : ev (keep_if_zero b new_cf) = if k =? 0 then rho "cf" mod 2 else ev new_cf.
  Proof. unfold keep_if_zero. rewrite ev_cond, Kv. reflexivity. Qed.
  (** shl: the last bit shifted out is bit n - k of the operand, for 0 < k <= n *)
  Theorem shl_cf_value : 0 < k <= size a -> ev (shl_cf a b) = Z.b2z (Z.testbit (ev a) (size a - k)).
  Proof.
    intros Hk.
    assert (D : ev (EOp "-" [int_from b (size a); masked_count b]) = size a - k).
    { rewrite ev_sub, Kv, ev_int_from by (cbn [int_from size]; lia). apply wrap_small. cbn [int_from size]. lia. }
    unfold shl_cf. rewrite ev_slice1, (ev_shr rho mu iota a _ _ Oa D), Z.shiftr_spec by lia. reflexivity.
  Qed.
  Lemma count_minus_one : 0 < k -> ev (EOp "-" [masked_count b; int_from b 1]) = k - 1.
  Proof.
    intros Hk. assert (Sm : size (masked_count b) = size b) by (apply size_op; lia).
    rewrite ev_sub, Sm, Kv, ev_one by lia. apply wrap_small. lia.
  Qed.
  (** the lifter isolates the last bit shifted out as 1 AND the operand shifted by k - 1 *)
  Lemma and_one_bit0 e : ev (EOp "&" [int_from a 1; e]) = Z.b2z (Z.testbit (ev e) 0).
  Proof. rewrite ev_and, ev_one, Z.land_comm, land1_bit0 by (cbn [int_from size]; lia). apply wrap_b2z, Pa. Qed.
  (** shr: the last bit shifted out is bit k - 1 of the operand, for every k > 0 (counts above the width give 0) *)
  Theorem shr_cf_value : 0 < k -> ev (shr_cf ">>" a b) = Z.b2z (Z.testbit (ev a) (k - 1)).
  Proof.
    intros Hk. unfold shr_cf. rewrite and_one_bit0, (ev_shr rho mu iota a _ _ Oa (count_minus_one Hk)), Z.shiftr_spec by lia. reflexivity.
  Qed.
  (** sar: the last bit shifted out of the sign-extended operand *)
  Theorem sar_cf_value : 0 < k -> ev (shr_cf "a>>" a b) = Z.b2z (Z.testbit (sgnv (size a) (ev a)) (k - 1)).
  Proof.
    intros Hk. unfold shr_cf. rewrite and_one_bit0, (ev_sar rho mu iota a _ _ Oa (count_minus_one Hk)), testbit_wrap, Z.shiftr_spec by lia. reflexivity.
  Qed.
End Meaning.

(** rol / ror: cf is written as the low bit of the rotated value (rol) and as its top bit (ror) — the processor's rule for a non-zero count *)
Section Rotates.
  Variable rho : string -> Z.
  Variable mu : Z -> Z.
  Variable iota : string -> list Z -> Z.
  Notation ev := (eval rho mu iota).
  Variables a b : expr.
  Hypothesis Oa : operand_ok a = true.
  Let Pa := proj1 (operand_range rho mu iota a Oa).
  Theorem rol_cf_value : ev (EOp "&" [shift_val Rol a b; int_from a 1]) = Z.b2z (Z.testbit (ev (shift_val Rol a b)) 0).
  Proof. cbn [shift_val]. rewrite ev_and, size_op, ev_one, land1_bit0 by (rewrite ?size_op; lia). apply wrap_b2z, Pa. Qed.
  Theorem ror_cf_value : ev (msb (shift_val Ror a b)) = Z.b2z (Z.testbit (ev (shift_val Ror a b)) (size a - 1)).
  Proof. cbn [shift_val]. rewrite ev_msb, size_op by lia. reflexivity. Qed.
End Rotates.
