(** PpcProofs.v — soundness of the disjointness test and the re-encoding identity (C18). *)
From Coq Require Import ZArith List Bool Lia.
From Mx Require Import Ppc.
Import ListNotations.
Open Scope Z_scope.

(** a field constraint pins the masked bits of the word *)
Lemma field_pins w o m : abs_val o (fieldv w o m) = Z.land w (abs_mask o m).
Proof.
  unfold fieldv, abs_val, abs_mask.
  apply Z.bits_inj'. intros n Hn.
  rewrite Z.land_spec, !Z.shiftl_spec by assumption.
  destruct (Z_lt_le_dec n o) as [L|L].
  - rewrite (Z.testbit_neg_r _ (n - o)) by lia. rewrite (Z.testbit_neg_r m (n - o)) by lia. destruct (Z.testbit w n); reflexivity.
  - rewrite Z.land_spec, Z.shiftr_spec by lia. replace (n - o + o) with n by lia. reflexivity.
Qed.

Lemma pinned_agree w m1 m2 : Z.land (Z.lxor (Z.land w m1) (Z.land w m2)) (Z.land m1 m2) = 0.
Proof.
  apply Z.bits_inj'. intros n Hn.
  rewrite Z.land_spec, Z.lxor_spec, !Z.land_spec, Z.bits_0.
  destruct (Z.testbit w n), (Z.testbit m1 n), (Z.testbit m2 n); reflexivity.
Qed.

Lemma eq_conflict_sound o1 m1 v1 o2 m2 v2 w :
  eq_conflict o1 m1 v1 o2 m2 v2 = true -> fieldv w o1 m1 = v1 -> fieldv w o2 m2 = v2 -> False.
Proof.
  intros C F1 F2. unfold eq_conflict in C.
  rewrite <- F1, <- F2, !field_pins, pinned_agree in C. discriminate.
Qed.

Lemma existsb_eqb_In x l : existsb (Z.eqb x) l = true -> In x l.
Proof. intros H. apply existsb_exists in H. destruct H as [y [I E]]. apply Z.eqb_eq in E. subst. assumption. Qed.

Lemma conflict_eq_sound o1 m1 v1 b w : conflict (CEq o1 m1 v1) b = true ->
  fieldv w o1 m1 = v1 -> con_ok w b = true -> False.
Proof.
  intros C A B. destruct b as [o2 m2 v2|o2 m2 v2|o2 m2 vs2]; simpl in *.
  - apply Z.eqb_eq in B. exact (eq_conflict_sound o1 m1 v1 o2 m2 v2 w C A B).
  - apply andb_true_iff in C as [C C3]. apply andb_true_iff in C as [C1 C2].
    apply Z.eqb_eq in C1, C2, C3. subst o2 m2 v2. rewrite A, Z.eqb_refl in B. discriminate.
  - apply existsb_eqb_In in B. rewrite forallb_forall in C. specialize (C _ B).
    exact (eq_conflict_sound o1 m1 v1 o2 m2 _ w C A eq_refl).
Qed.

(* [conflict] has one clause for a CEq on either side, so both orders are instances of the lemma above *)
Lemma conflict_sound a b w : conflict a b = true -> con_ok w a = true -> con_ok w b = true -> False.
Proof.
  intros C A B. destruct a as [o1 m1 v1|o1 m1 v1|o1 m1 vs1], b as [o2 m2 v2|o2 m2 v2|o2 m2 vs2]; try discriminate C;
    try (apply Z.eqb_eq in A; exact (conflict_eq_sound _ _ _ _ w C A B));
    try (apply Z.eqb_eq in B; refine (conflict_eq_sound o2 m2 v2 _ w _ B A); exact C).
  simpl in *. apply existsb_eqb_In in A. apply existsb_eqb_In in B. rewrite forallb_forall in C. specialize (C _ A).
  rewrite forallb_forall in C. specialize (C _ B). exact (eq_conflict_sound o1 m1 _ o2 m2 _ w C eq_refl eq_refl).
Qed.

Lemma disjointb_sound c1 c2 w : disjointb c1 c2 = true -> check c1 w = true -> check c2 w = true -> False.
Proof.
  unfold disjointb, check. intros D C1 C2.
  apply existsb_exists in D. destruct D as [a [Ia D]]. apply existsb_exists in D. destruct D as [b [Ib D]].
  rewrite forallb_forall in C1, C2.
  eapply (conflict_sound a b w); eauto.
Qed.

(** at most one class claims a word *)
Lemma claimants_at_most_one cs : all_pairs_disjoint cs = true -> forall w, (List.length (claimants cs w) <= 1)%nat.
Proof.
  induction cs as [|c r IH]; intros D w; [simpl; lia|].
  simpl in D. apply andb_true_iff in D as [Dc Dr].
  specialize (IH Dr w). unfold claimants in *. cbn [filter].
  destruct (check c w) eqn:E; [|assumption].
  destruct (filter (fun c0 => check c0 w) r) as [|c2 t] eqn:F; [simpl; lia|]. exfalso.
  assert (In c2 (filter (fun c0 => check c0 w) r)) as I by (rewrite F; left; reflexivity).
  apply filter_In in I. destruct I as [I2 K2]. rewrite forallb_forall in Dc.
  eapply (disjointb_sound c c2 w); eauto.
Qed.

(** extracting a field and putting it back is masking the word *)
Lemma field_mask w off l :
  Z.shiftl (Z.land (Z.land (Z.shiftr w off) (Z.ones l)) (Z.ones l)) off = Z.land w (Z.shiftl (Z.ones l) off).
Proof. rewrite <- Z.land_assoc, Z.land_diag. exact (field_pins w off (Z.ones l)). Qed.

Lemma reencode_is_mask c w : plain_fields c = true -> reencode c w = Z.land w (total_mask c).
Proof.
  unfold plain_fields, reencode, total_mask. generalize (pc_fields c) as fs.
  assert (G : forall fs acc accm, forallb (fun f => let '(off, l, kind, inv) := f in (kind =? 0) && (inv =? 0) && (0 <=? off) && (0 <=? l)) fs = true ->
            acc = Z.land w accm ->
            fold_left (fun acc f => Z.lor acc (field_roundtrip w f)) fs acc =
            Z.land w (fold_left (fun acc f => let '(off, l, kind, inv) := f in Z.lor acc (Z.shiftl (Z.ones l) off)) fs accm)).
  { induction fs as [|[[[off l] kind] inv] fs IH]; simpl; intros acc accm H E; [assumption|].
    apply andb_true_iff in H as [H Hr]. apply andb_true_iff in H as [H _]. apply andb_true_iff in H as [H _].
    apply andb_true_iff in H as [Hk Hi]. apply Z.eqb_eq in Hk, Hi. subst kind inv.
    apply IH; [assumption|]. unfold field_roundtrip. simpl.
    rewrite field_mask, E, Z.land_lor_distr_r. reflexivity. }
  intros fs H. apply G; [assumption|]. rewrite Z.land_0_r. reflexivity.
Qed.

Lemma reencode_identity c w : plain_fields c = true -> total_mask c = Z.ones 32 -> 0 <= w < 2 ^ 32 -> reencode c w = w.
Proof.
  intros P M W. rewrite reencode_is_mask by assumption. rewrite M, Z.land_ones by lia. apply Z.mod_small. assumption.
Qed.
