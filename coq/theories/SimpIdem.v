(** SimpIdem.v — idempotence of the simplifier on well-formed trees (C13): the result of simp is a DEEP normal form — every
    node of it is left unchanged by the rewriting step _expr_simp — and simplifying a deep normal form returns it unchanged.
    Well-formedness (SimpProofs.wf) enters twice: the step keeps it (simp1_good), and on well-formed trees whose identifier predicate
    determines the is_term flag, == (expr_eqb, which ignores the signedness tag of constants and is_term) is Leibniz equality. *)
From Coq Require Import ZArith List Bool String.
From Mx Require Import Expr ExprProofs Simp SimpProofs.
Import ListNotations.
Open Scope Z_scope.

Section Idem.
  Variable ac : bool.
  Variable IdQ : string -> Z -> bool -> bool -> bool.
  Hypothesis IdQ_det : forall n w r t t', IdQ n w r t = true -> IdQ n w r t' = true -> t = t'.
  Notation wfq := (wf ac IdQ).
  Let rho0 : string -> Z := fun _ => 0.
  Let mu0 : Z -> Z := fun _ => 0.
  Let iota0 : string -> list Z -> Z := fun _ _ => 0.
  Notation goodq := (good ac IdQ rho0 mu0 iota0).
  Notation vrelq := (vrel ac IdQ rho0 mu0 iota0).

  Lemma all2_eq {A} (f : A -> A -> bool) (P : A -> Prop) l :
    Forall (fun a => forall b, P a -> P b -> f a b = true -> a = b) l -> forall l', Forall P l -> Forall P l' -> all2 f l l' = true -> l = l'.
  Proof.
    induction 1 as [|a l Ha _ IH]; intros [|b l'] F F' E; try discriminate E; [reflexivity|].
    inversion F; inversion F'; subst. cbn [all2] in E. apply andb_true_iff in E as [Eab Er]. f_equal; auto.
  Qed.
  Lemma wf_eqb_eq : forall x y, wfq x = true -> wfq y = true -> expr_eqb x y = true -> x = y.
  Proof.
    induction x using expr_ind'; intros y Wx Wy E; destruct y; try discriminate.
    - rewrite eqb_int, andb_true_iff, !Z.eqb_eq in E. destruct E as [-> ->].
      apply wf_int_iff in Wx as (-> & _). apply wf_int_iff in Wy as (-> & _). reflexivity.
    - rewrite eqb_id, !andb_true_iff, String.eqb_eq, Z.eqb_eq in E. destruct E as [[-> ->] E3]. apply eqb_prop in E3. subst.
      apply wf_id_iff in Wx as (_ & Q1). apply wf_id_iff in Wy as (_ & Q2). rewrite (IdQ_det _ _ _ _ _ Q1 Q2). reflexivity.
    - rewrite eqb_mem, !andb_true_iff, Z.eqb_eq in E. destruct E as [[E1 ->] E3].
      apply wf_mem_iff in Wx as (Wa & _ & Ws). apply wf_mem_iff in Wy as (Wa' & _ & Ws').
      rewrite (IHx y Wa Wa' E1). destruct s as [u|], segm as [u'|]; try discriminate E3; [|reflexivity]. rewrite (H u' Ws Ws' E3). reflexivity.
    - rewrite eqb_op, andb_true_iff, String.eqb_eq in E. destruct E as [-> E2].
      apply wf_op_iff in Wx as [Wl _]. apply wf_op_iff in Wy as [Wl' _]. f_equal. exact (all2_eq _ _ _ H _ Wl Wl' E2).
    - rewrite eqb_cond, !andb_true_iff in E. destruct E as [[E1 E2] E3].
      apply wf_cond_iff in Wx as (W1 & W2 & W3 & _). apply wf_cond_iff in Wy as (W1' & W2' & W3' & _).
      rewrite (IHx1 y1), (IHx2 y2), (IHx3 y3); auto.
    - rewrite eqb_slice, !andb_true_iff, !Z.eqb_eq in E. destruct E as [[E1 ->] ->].
      apply wf_slice_iff in Wx as (Wa & _). apply wf_slice_iff in Wy as (Wa' & _). rewrite (IHx y); auto.
    - rewrite eqb_compose in E. destruct (proj1 (wf_compose_iff ac IdQ _) Wx) as (_ & _ & Hx & _). destruct (proj1 (wf_compose_iff ac IdQ _) Wy) as (_ & _ & Hy & _). f_equal.
      refine (all2_eq slot_eqb (fun s => wfq (slot_e s) = true) _ _ _ _ _ E); [|apply Forall_forall; intros s Is; apply (Hx s Is) | apply Forall_forall; intros s Is; apply (Hy s Is)].
      eapply Forall_impl; [|exact H]. intros [[es ls] hs] Hs [[et lt] ht] Ws Wt Q. unfold slot_eqb in Q. cbn [slot_e slot_lo slot_hi fst snd] in *.
      rewrite !andb_true_iff, !Z.eqb_eq in Q. destruct Q as [[Q1 ->] ->]. rewrite (Hs et Ws Wt Q1). reflexivity.
  Qed.

  (** DF e: e is a deep fixpoint of the rewriting step — simp1 leaves e and, recursively, every sub-tree unchanged.  The lists of
      children are walked by inline fixpoints, as the guard condition wants; [kids] and DF_unfold give the readable form. *)
  Fixpoint DF (e : expr) : Prop :=
    simp1 e = Ok e /\
    match e with
    | EMem a _ s => DF a /\ match s with Some u => DF u | None => True end
    | EOp _ args => (fix all (l : list expr) : Prop := match l with [] => True | x :: r => DF x /\ all r end) args
    | ECond c a b => DF c /\ DF a /\ DF b
    | ESlice a _ _ => DF a
    | ECompose slots => (fix alls (l : list slot) : Prop := match l with [] => True | x :: r => DF (slot_e x) /\ alls r end) slots
    | _ => True
    end.
  Definition kids (e : expr) : Prop :=
    match e with
    | EMem a _ s => DF a /\ match s with Some u => DF u | None => True end
    | EOp _ args => Forall DF args
    | ECond c a b => DF c /\ DF a /\ DF b
    | ESlice a _ _ => DF a
    | ECompose slots => Forall (fun s => DF (slot_e s)) slots
    | _ => True
    end.
  Lemma conj_Forall {A} (P : A -> Prop) l : (fix all (l : list A) : Prop := match l with [] => True | x :: r => P x /\ all r end) l <-> Forall P l.
  Proof.
    induction l as [|a l IH]; [split; constructor|]. split.
    - intros [Ha Hl]. constructor; [exact Ha | apply IH, Hl].
    - intros H. inversion H; subst. split; [assumption | apply IH; assumption].
  Qed.
  Lemma DF_unfold e : DF e <-> simp1 e = Ok e /\ kids e.
  Proof. destruct e; simpl; try tauto; [rewrite (conj_Forall DF) | rewrite (conj_Forall (fun s => DF (slot_e s)))]; tauto. Qed.

  Lemma visit_DF_id cb : (forall x, simp1 x = Ok x -> cb x = Ok x) -> forall e, wfq e = true -> DF e -> visitM cb e = Ok e.
  Proof.
    intros Hcb. induction e using expr_ind'; intros W D; try discriminate W; apply DF_unfold in D as [S K]; cbn [kids] in K; cbn [visitM].
    - apply Hcb. exact S.
    - apply Hcb. exact S.
    - destruct K as [Ka Ks]. apply wf_mem_iff in W as (Wa & _ & Ws). rewrite (IHe Wa Ka). destruct s as [u|]; [rewrite (H Ws Ks)|];
        cbn [bind opt_eqb]; rewrite !eqb_refl; apply Hcb; exact S.
    - apply wf_op_iff in W as [Wl _]. assert (M : mapM (visitM cb) args = Ok args).
      { clear S. induction H as [|a l Ha Hl IH]; [reflexivity|]. inversion K; inversion Wl; subst. cbn [mapM]. rewrite Ha, IH by assumption. reflexivity. }
      rewrite M. cbn [bind]. rewrite (all2_refl expr_eqb args) by (apply Forall_forall; intros; apply eqb_refl). apply Hcb. exact S.
    - destruct K as (K1 & K2 & K3). apply wf_cond_iff in W as (W1 & W2 & W3 & _).
      rewrite (IHe1 W1 K1), (IHe2 W2 K2), (IHe3 W3 K3). cbn [bind]. rewrite !eqb_refl. apply Hcb. exact S.
    - apply wf_slice_iff in W as (Wa & _). rewrite (IHe Wa K). cbn [bind]. rewrite eqb_refl. apply Hcb. exact S.
    - destruct (proj1 (wf_compose_iff ac IdQ _) W) as (_ & _ & Hw & _).
      assert (M : mapM (fun s => do x <- visitM cb (slot_e s); Ok (x, slot_lo s, slot_hi s)) args = Ok args).
      { clear S W. induction H as [|s l Hs Hl IH]; [reflexivity|]. inversion K; subst. cbn [mapM]. rewrite Hs by (auto; apply Hw; left; reflexivity). cbn [bind].
        rewrite IH by (auto; intros u Iu; apply Hw; right; exact Iu). destruct s as [[es ls] hs]. reflexivity. }
      rewrite M. cbn [bind]. rewrite (all2_refl _ args) by (apply Forall_forall; intros s _; rewrite eqb_refl, !Z.eqb_refl; reflexivity). apply Hcb. exact S.
  Qed.

  Lemma loop_DF_id rec n x : simp1 x = Ok x -> simp_loop rec (S n) x = Ok x.
  Proof. intros S. cbn [simp_loop]. rewrite S. cbn [bind]. rewrite eqb_refl. reflexivity. Qed.

  Theorem simp_of_normal_form : forall f e, wfq e = true -> DF e -> simp (S f) e = Ok e.
  Proof. intros f e W D. cbn [simp]. apply visit_DF_id; [|exact W | exact D]. intros x S. apply loop_DF_id. exact S. Qed.

  Lemma rebuilt_kids e n : rebuilt (fun _ a' => DF a') e n -> kids n.
  Proof.
    intros RB. destruct RB as [| |a a' w s s' Va Vs|op l l' F| | |l l' F|]; cbn [kids]; auto.
    - split; [exact Va|]. destruct s, s'; try contradiction; auto.
    - induction F; constructor; auto.
    - induction F as [|s s' l l' [D _] _ IH]; constructor; auto.
  Qed.

  Section FrameDF.
    Variable cb : expr -> res expr.
    Hypothesis cb_good : forall x x', wfq x = true -> cb x = Ok x' -> goodq x x'.
    Hypothesis cb_int : forall sg w v x', cb (EInt sg w v) = Ok x' -> is_int x' = true.
    Hypothesis cb_DF : forall x r, wfq x = true -> kids x -> cb x = Ok r -> DF r.

    Lemma visit_DF : forall e rr, visitM cb e = Ok rr -> wfq e = true -> vrelq e rr /\ DF rr.
    Proof.
      apply (visitM_ind cb (fun e r => wfq e = true -> vrelq e r /\ DF r)). intros e n b r RB Q HC W.
      pose proof (rebuilt_wf ac IdQ _ _ e n W RB (fun a a' Wa H => proj1 (H Wa))) as RBv.
      split; [exact (vrel_step ac IdQ rho0 mu0 iota0 cb cb_good cb_int e n b r W RBv HC)|].
      destruct (rebuilt_good ac IdQ rho0 mu0 iota0 e n W RBv) as (Wn & _).
      (* an unchanged node is the old node itself, so [cb] is applied to the rebuilt node in either case *)
      assert (X : (if b then e else n) = n) by (destruct b; [symmetry; apply (wf_eqb_eq n e Wn W (Q eq_refl)) | reflexivity]).
      rewrite X in HC. apply (cb_DF n r Wn); [|exact HC]. apply (rebuilt_kids e), (rebuilt_wf ac IdQ _ _ e n W RB (fun a a' Wa H => proj2 (H Wa))).
    Qed.
  End FrameDF.

  Lemma DF_kids e : DF e -> kids e.
  Proof. intros D. apply DF_unfold in D. apply D. Qed.

  Lemma loop_DF (rec_simp : expr -> res expr) :
    (forall x x', wfq x = true -> rec_simp x = Ok x' -> goodq x x') -> (forall x r, wfq x = true -> rec_simp x = Ok r -> DF r) ->
    forall n x r, wfq x = true -> kids x -> simp_loop rec_simp n x = Ok r -> DF r.
  Proof.
    intros RG RD. induction n as [|n IH]; intros x r W K H; simpl in H; [discriminate|].
    apply bind_ok in H as (x1 & E1 & H).
    pose proof (simp1_good ac IdQ rho0 mu0 iota0 x x1 W E1) as G1.
    destruct (expr_eqb x1 x) eqn:Q.
    - inversion H; subst r. apply DF_unfold. split; [|exact K]. rewrite E1. f_equal. apply wf_eqb_eq; [apply G1 | exact W | exact Q].
    - apply bind_ok in H as (e2 & E2 & H).
      pose proof (RG x1 e2 ltac:(apply G1) E2) as G2. pose proof (RD x1 e2 ltac:(apply G1) E2) as D2.
      apply (IH e2 r); [apply G2 | apply DF_kids; exact D2 | exact H].
  Qed.

  Theorem simp_result_is_normal_form : forall fuel e r, wfq e = true -> simp fuel e = Ok r -> DF r.
  Proof.
    induction fuel as [|f IH]; intros e r W H; [simpl in H; discriminate|].
    simpl in H. refine (proj2 (visit_DF (simp_loop (simp f) (S f)) _ _ _ e r H W)).
    - intros x x' Wx Hx. apply (loop_good ac IdQ rho0 mu0 iota0 (simp f) (simp_good ac IdQ rho0 mu0 iota0 f) (S f)); assumption.
    - intros sg w v x' Hx. apply (loop_int _ _ _ _ _ _ Hx).
    - intros x r0 Wx Kx Hx. apply (loop_DF (simp f) (simp_good ac IdQ rho0 mu0 iota0 f) IH (S f) x r0 Wx Kx Hx).
  Qed.

  Theorem simp_idempotent : forall fuel e r, wfq e = true -> simp fuel e = Ok r -> forall f, simp (S f) r = Ok r.
  Proof.
    intros fuel e r W H f. apply simp_of_normal_form; [apply (simp_good ac IdQ rho0 mu0 iota0 fuel e r W H) | apply (simp_result_is_normal_form fuel e r W H)].
  Qed.
End Idem.
