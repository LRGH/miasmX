(** LiftTie.v — the shape every tie of the lifted dump (tie S) shares.  A classifier of the mnemonic selects the forms a
    family of instructions speaks of; a boolean check compares the lifted list of each selected form with the mirror.
    The sweep over the regenerated dump is evaluated once per family; this file reads its result back. *)
From Coq Require Import List Bool String.
From Mx Require Import Expr Wf Sem SemProofs Reflect.

Section Tie.
  Variable K : Type.
  Variable cls : string -> option K.
  Variable chk : K -> lcase -> list expr -> bool.

  Definition tie (c : lcase) : bool :=
    match cls (lc_mnemo c), lc_lift c with Some k, Some l => chk k c l | _, _ => true end.

  Lemma tie_In dump : forallb (forallb tie) dump = true ->
    forall sh c k l, In sh dump -> In c sh -> cls (lc_mnemo c) = Some k -> lc_lift c = Some l -> chk k c l = true.
  Proof.
    intros H sh c k l Hs Hc Hk Hl. pose proof (forallb_forallb_In _ _ H sh c Hs Hc) as T.
    unfold tie in T. rewrite Hk, Hl in T. exact T.
  Qed.
End Tie.
Arguments tie {K}.
Arguments tie_In {K}.

(** the check most families use: the list is the mirror, where there is one; [strict] says whether a form without
    mirror fails the check *)
Definition eq_mirror (strict : bool) (m : option (list expr)) (l : list expr) : bool :=
  match m with Some m' => list_expr_eqb l m' | None => negb strict end.

Lemma eq_mirror_strict m l : eq_mirror true m l = true ->
  exists m', m = Some m' /\ forall rho mu iota, map (eval rho mu iota) l = map (eval rho mu iota) m'.
Proof. destruct m as [m'|]; [|discriminate]. intros H. exists m'. split; [reflexivity|]. intros. apply list_expr_eqb_eval. exact H. Qed.

Lemma eq_mirror_lax m l : eq_mirror false m l = true ->
  m = None \/ exists m', m = Some m' /\ forall rho mu iota, map (eval rho mu iota) l = map (eval rho mu iota) m'.
Proof. destruct m as [m'|]; [|left; reflexivity]. intros H. right. exists m'. split; [reflexivity|]. intros. apply list_expr_eqb_eval. exact H. Qed.

(** the classes that occur in the dump, collected in one pass: whether some form of a given class occurs is then read off the
    collected list (existsb_seen) *)
Section Seen.
  Variable K : Type.
  Variable sel : lcase -> option K.
  Definition seen (dump : list (list lcase)) : list K :=
    flat_map (flat_map (fun c => match sel c with Some k => k :: nil | None => nil end)) dump.
  Lemma existsb_seen (p : K -> bool) (q : lcase -> bool) dump :
    (forall c, q c = match sel c with Some k => p k | None => false end) ->
    existsb (existsb q) dump = existsb p (seen dump).
  Proof.
    intros Q. unfold seen. induction dump as [|sh d IH]; [reflexivity|]. cbn [flat_map existsb]. rewrite existsb_app, IH. f_equal.
    induction sh as [|c sh IHs]; [reflexivity|]. cbn [flat_map existsb]. rewrite existsb_app, IHs, Q.
    destruct (sel c); cbn [existsb]; rewrite ?orb_false_r; reflexivity.
  Qed.
End Seen.
Arguments seen {K}.
Arguments existsb_seen {K}.

(** a count over the dump may be taken with any step function that agrees with the given one on the forms of the dump *)
Lemma fold_dump_ext {A} (F G : A -> lcase -> A) dump : (forall sh c x, In sh dump -> In c sh -> F x c = G x c) ->
  forall a, fold_left (fun acc sh => fold_left F sh acc) dump a = fold_left (fun acc sh => fold_left G sh acc) dump a.
Proof.
  induction dump as [|sh d IH]; intros E a; [reflexivity|]. cbn [fold_left].
  rewrite <- (IH (fun sh' c x Hs => E sh' c x (or_intror Hs))). f_equal.
  assert (S : forall l, incl l sh -> forall x, fold_left F l x = fold_left G l x).
  { induction l as [|c l IHl]; intros I x; [reflexivity|]. cbn [fold_left].
    rewrite (E sh c x (or_introl eq_refl) (I c (or_introl eq_refl))). apply IHl. intros y Hy. apply I. right. exact Hy. }
  apply S, incl_refl.
Qed.

(** under a tie every form of the class passes the check, so the forms that pass are the forms of the class *)
Lemma count_tied {K} (cls : string -> option K) (chk : K -> lcase -> list expr -> bool) dump : forallb (forallb (tie cls chk)) dump = true ->
  fold_left (fun acc sh => fold_left (fun acc c => match cls (lc_mnemo c), lc_lift c with
     | Some k, Some l => if chk k c l then S acc else acc | _, _ => acc end) sh acc) dump O =
  fold_left (fun acc sh => fold_left (fun acc c => match cls (lc_mnemo c), lc_lift c with Some _, Some _ => S acc | _, _ => acc end) sh acc) dump O.
Proof.
  intros T. apply fold_dump_ext. intros sh c x Hs Hc.
  destruct (cls (lc_mnemo c)) as [k|] eqn:Ek; [|reflexivity]. destruct (lc_lift c) as [l|] eqn:El; [|reflexivity].
  rewrite (tie_In cls chk dump T sh c k l Hs Hc Ek El). reflexivity.
Qed.
