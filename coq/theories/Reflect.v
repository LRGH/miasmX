(** Reflect.v — from a boolean sweep that evaluated to [true] back to the statement about every member. *)
From Coq Require Import List Bool.

Lemma forallb2_In {A B} (g : A -> list B) (f : A -> B -> bool) l :
  forallb (fun x => forallb (f x) (g x)) l = true -> forall x y, In x l -> In y (g x) -> f x y = true.
Proof. intros H x y Hx Hy. rewrite forallb_forall in H. specialize (H x Hx). rewrite forallb_forall in H. exact (H y Hy). Qed.

Lemma forallb_forallb_In {A} (ok : A -> bool) ll :
  forallb (forallb ok) ll = true -> forall l x, In l ll -> In x l -> ok x = true.
Proof. exact (forallb2_In (fun l => l) (fun _ => ok) ll). Qed.

(** a row that does not look at its second index is checked at one sample of it *)
Lemma forallb2_cut {A B} (g : A -> list B) (row : A -> B -> bool) (p : A -> bool) (sample : B) l :
  (forall x y, p x = true -> row x y = row x sample) ->
  forallb (fun x => if p x then row x sample else forallb (row x) (g x)) l = true ->
  forallb (fun x => forallb (row x) (g x)) l = true.
Proof.
  intros P H. apply forallb_forall. intros x Hx. rewrite forallb_forall in H. specialize (H x Hx).
  destruct (p x) eqn:Px; [|exact H]. apply forallb_forall. intros y _. rewrite (P x y Px). exact H.
Qed.
