(** SemProofs.v — the evaluation base of the lifter proofs, stated on the mirror of Sem.v under the standard meaning Expr.eval: what
    each kind of operator node means (one lemma per operator), single bits and flags of a value, and the arithmetic / logic group:
    the XOR-based carry / overflow identities of the lifter's flag helpers are the processor's flags, for every operand width and
    every value (C04). *)
From Coq Require Import ZArith List Bool String Lia.
From Mx Require Import Expr ExprProofs Bits Sem.
Import ListNotations.
Open Scope Z_scope.

Definition sgnv (n v : Z) : Z := if 2 ^ (n - 1) <=? v then v - 2 ^ n else v.            (* two's complement reading of 0 <= v < 2^n *)
Definition cf_add (n x y ci : Z) : bool := 2 ^ n <=? x + y + ci.
Definition of_add (n x y ci : Z) : bool := let s := sgnv n x + sgnv n y + ci in (s <? - 2 ^ (n - 1)) || (2 ^ (n - 1) <=? s).
Definition cf_sub (n x y ci : Z) : bool := x <? y + ci.
Definition of_sub (n x y ci : Z) : bool := let s := sgnv n x - sgnv n y - ci in (s <? - 2 ^ (n - 1)) || (2 ^ (n - 1) <=? s).

Section Carry.
  Variables n x y ci : Z.
  Hypothesis Hn : 0 < n.
  Hypothesis Hx : 0 <= x < 2 ^ n.
  Hypothesis Hy : 0 <= y < 2 ^ n.
  Hypothesis Hc : 0 <= ci <= 1.
  Let bx := Z.testbit x (n - 1).
  Let by_ := Z.testbit y (n - 1).

  (** an unreduced result within one 2^n of the range is reduced by at most one 2^n *)
  Lemma wrap_near r : - 2 ^ n <= r < 2 * 2 ^ n -> let z := r mod 2 ^ n in 0 <= z < 2 ^ n /\ (z = r + 2 ^ n \/ z = r \/ z = r - 2 ^ n).
  Proof.
    intros H z. split; [apply Z.mod_pos_bound; lia|].
    destruct (Z_lt_le_dec r 0); [left; apply (wrap_unique n _ _ (-1)) | destruct (Z_lt_le_dec r (2 ^ n)); [right; left; apply Z.mod_small | right; right; apply (wrap_unique n _ _ 1)]]; lia.
  Qed.

  Lemma carry_identities :
    (let bz := Z.testbit ((x + y + ci) mod 2 ^ n) (n - 1) in
     xorb (xorb (xorb bx by_) bz) (andb (xorb bx bz) (negb (xorb bx by_))) = cf_add n x y ci /\ andb (xorb bx bz) (negb (xorb bx by_)) = of_add n x y ci) /\
    (let bz := Z.testbit ((x - y - ci) mod 2 ^ n) (n - 1) in
     xorb (xorb (xorb bx by_) bz) (andb (xorb bx bz) (xorb bx by_)) = cf_sub n x y ci /\ andb (xorb bx bz) (xorb bx by_) = of_sub n x y ci).
  Proof.
    destruct (pow_split n Hn) as [E P].
    destruct (wrap_near (x + y + ci)) as [Ra Ea]; [lia|]. destruct (wrap_near (x - y - ci)) as [Rs Es]; [lia|].
    unfold bx, by_. clear bx by_. (* lia is slow when local definitions that mention Z.testbit are in sight *)
    cbv zeta. rewrite !msb_ge by assumption. unfold cf_add, of_add, cf_sub, of_sub, sgnv.
    set (za := _ mod _) in *. set (zs := _ mod _) in *. set (p := 2 ^ (n - 1)) in *. rewrite E in *. clearbody za zs p.
    repeat split; cmp_cases.
  Qed.
End Carry.

Section Meaning.
  Variable rho : string -> Z.
  Variable mu : Z -> Z.
  Variable iota : string -> list Z -> Z.
  Notation ev := (eval rho mu iota).

  Lemma operand_range a : operand_ok a = true -> 0 < size a /\ 0 <= ev a < 2 ^ size a.
  Proof.
    destruct a as [sg w v|nm w r t|ad w sg| | |e lo hi| |]; simpl; try discriminate.
    1-3: intros H; apply Z.ltb_lt in H; split; [assumption | apply wrap_range; lia].
    destruct e; try discriminate. rewrite !andb_true_iff, !Z.leb_le, Z.ltb_lt. intros [[H1 H2] H3].
    split; [lia | apply wrap_range; lia].
  Qed.

  (** What each kind of node means: one lemma per operator of [eval_op], at the arity the lifter uses. *)
  Lemma ev_add a b : size a <> 0 -> ev (EOp "+" [a; b]) = wrap (size a) (ev a + ev b).
  Proof. apply ev_op. Qed.
  Lemma ev_sub a b : size a <> 0 -> ev (EOp "-" [a; b]) = wrap (size a) (ev a - ev b).
  Proof. apply ev_op. Qed.
  Lemma ev_mul a b : size a <> 0 -> ev (EOp "*" [a; b]) = wrap (size a) (ev a * ev b).
  Proof. intros H. rewrite ev_op by exact H. change (wrap (size a) (1 * ev a * ev b) = wrap (size a) (ev a * ev b)). rewrite Z.mul_1_l. reflexivity. Qed.
  Lemma ev_xor a b : size a <> 0 -> ev (EOp "^" [a; b]) = wrap (size a) (Z.lxor (ev a) (ev b)).
  Proof. apply ev_op. Qed.
  Lemma ev_and a b : size a <> 0 -> ev (EOp "&" [a; b]) = wrap (size a) (Z.land (ev a) (ev b)).
  Proof. apply ev_op. Qed.
  Lemma ev_or a b : size a <> 0 -> ev (EOp "|" [a; b]) = wrap (size a) (Z.lor (ev a) (ev b)).
  Proof. apply ev_op. Qed.
  Lemma ev_int_from a v : 0 <= v < 2 ^ size a -> ev (int_from a v) = v.
  Proof. apply wrap_small. Qed.
  Lemma ev_one a : 0 < size a -> ev (int_from a 1) = 1.
  Proof. intros H. apply ev_int_from. pose proof (one_lt_pow2 _ H). lia. Qed.
  Lemma ev_flag f : ev (flag f) = Z.b2z (Z.odd (rho f)).
  Proof. apply wrap1_odd. Qed.
  (** a mask of k ones keeps the low k bits: the lifter's `& 31` on a count, `& 1` for a single bit, `& (width - 1)` for a bit index *)
  Lemma ev_and_ones a m k : 0 <= k <= size a -> size a <> 0 -> ev m = Z.ones k -> ev (EOp "&" [a; m]) = ev a mod 2 ^ k.
  Proof.
    intros Hk Sa Em. rewrite ev_and, Em, Z.land_ones by lia. apply wrap_small_le with k; [apply Z.mod_pos_bound, pow2_pos|]; lia.
  Qed.

  (** shifts as [eval_op] writes them: the count saturated at the width, the operand reduced *)
  Lemma ev_shl_sat a s : size a <> 0 -> ev (EOp "<<" [a; s]) = wrap (size a) (Z.shiftl (ev a) (Z.min (ev s) (size a))).
  Proof. apply ev_op. Qed.
  Lemma ev_shr_sat a s : size a <> 0 -> ev (EOp ">>" [a; s]) = wrap (size a) (Z.shiftr (wrap (size a) (ev a)) (Z.min (ev s) (size a))).
  Proof. apply ev_op. Qed.
  Lemma ev_sar_sat a s : size a <> 0 -> ev (EOp "a>>" [a; s]) = wrap (size a) (Z.shiftr (sgn (size a) (ev a)) (Z.min (ev s) (size a))).
  Proof. apply ev_op. Qed.
  Lemma sgn_sgnv n x : 0 < n -> 0 <= x < 2 ^ n -> sgn n x = sgnv n x.
  Proof.
    intros Hn Hx. destruct (pow_split n Hn) as [E P]. unfold sgn, sgnv. cbv zeta. rewrite (wrap_small n x Hx).
    destruct (Z.geb_spec (2 * x) (2 ^ n)), (Z.leb_spec (2 ^ (n - 1)) x); try reflexivity; lia.
  Qed.
  Lemma sgnv_range n x : 0 < n -> 0 <= x < 2 ^ n -> - 2 ^ (n - 1) <= sgnv n x < 2 ^ (n - 1).
  Proof. intros Hn Hx. rewrite <- sgn_sgnv by assumption. apply sgn_range, Hn. Qed.
  (** for an operand of the lifter, whose value is below 2^n, saturation and reduction change nothing *)
  Section Shifts.
    Variables (a s : expr) (c : Z).
    Hypothesis Oa : operand_ok a = true.
    Hypothesis Es : ev s = c.
    Lemma ev_shl : ev (EOp "<<" [a; s]) = wrap (size a) (Z.shiftl (ev a) c).
    Proof. destruct (operand_range a Oa) as [P _]. rewrite ev_shl_sat, Es by lia. apply shiftl_sat; lia. Qed.
    Lemma ev_shr : 0 <= c -> ev (EOp ">>" [a; s]) = Z.shiftr (ev a) c.
    Proof.
      intros Hc. destruct (operand_range a Oa) as [P R]. rewrite ev_shr_sat, Es, (wrap_small _ _ R), (shiftr_sat (size a)) by (assumption || lia).
      apply wrap_small, shiftr_range; assumption.
    Qed.
    Lemma ev_sar : ev (EOp "a>>" [a; s]) = wrap (size a) (Z.shiftr (sgnv (size a) (ev a)) c).
    Proof.
      destruct (operand_range a Oa) as [P R]. rewrite ev_sar_sat, Es, sgn_sgnv by (assumption || lia).
      apply sar_sat; [lia | apply sgnv_range; assumption].
    Qed.
  End Shifts.
  (** [eval_op] gives a rotate of width 0 the value 0 and reduces the operand *)
  Lemma ev_rol a s : operand_ok a = true -> ev (EOp "<<<" [a; s]) = rol (size a) (ev a) (ev s).
  Proof.
    intros Oa. destruct (operand_range a Oa) as [P R].
    transitivity (if size a =? 0 then 0 else rol (size a) (wrap (size a) (ev a)) (ev s)); [apply ev_op; lia|].
    rewrite (proj2 (Z.eqb_neq _ _)), (wrap_small _ _ R) by lia. reflexivity.
  Qed.
  Lemma ev_ror a s : operand_ok a = true -> ev (EOp ">>>" [a; s]) = ror (size a) (ev a) (ev s).
  Proof.
    intros Oa. destruct (operand_range a Oa) as [P R].
    transitivity (if size a =? 0 then 0 else ror (size a) (wrap (size a) (ev a)) (ev s)); [apply ev_op; lia|].
    rewrite (proj2 (Z.eqb_neq _ _)), (wrap_small _ _ R) by lia. reflexivity.
  Qed.

  (** the lifter's named operators and its rotates through carry: under either reading the operator is none of the kinds above *)
  Lemma named_other op vs v : named_op op vs = Some v -> opk_of op = OOther /\ forall w, rc_op op w vs = None.
  Proof.
    unfold named_op. destruct vs as [|? [|? [|? [|? ?]]]]; try discriminate;
      repeat match goal with |- context [(op =? ?s)%string] =>
        destruct (String.eqb_spec op s) as [->|_]; [intros _; split; [reflexivity | intros w; reflexivity]|] end; discriminate.
  Qed.
  Lemma ev_named op l v : named_op op (map ev l) = Some v -> ev (EOp op l) = wrap (size (EOp op l)) v.
  Proof. intros N. destruct (named_other _ _ _ N) as [K R]. rewrite eval_op_node. unfold eval_op. rewrite K, R, N. reflexivity. Qed.
  Lemma ev_rc op l v : opk_of op = OOther -> rc_op op (size (EOp op l)) (map ev l) = Some v -> ev (EOp op l) = wrap (size (EOp op l)) v.
  Proof. intros K R. rewrite eval_op_node. unfold eval_op. rewrite K, R. reflexivity. Qed.

  Lemma ev_slice1 e lo hi : hi - lo = 1 -> ev (ESlice e lo hi) = Z.b2z (Z.testbit (ev e) lo).
  Proof. intros H. rewrite ev_slice, H, wrap1_odd, <- Z.bit0_odd, Z.shiftr_spec by lia. reflexivity. Qed.
  Lemma ev_msb e : ev (msb e) = Z.b2z (Z.testbit (ev e) (size e - 1)).
  Proof. apply ev_slice1. lia. Qed.
  Lemma xor_bit a b i : 0 <= i < size a -> Z.testbit (ev (EOp "^" [a; b])) i = xorb (Z.testbit (ev a) i) (Z.testbit (ev b) i).
  Proof. intros H. rewrite ev_xor, testbit_wrap by lia. apply Z.lxor_spec. Qed.
  Lemma and_bit a b i : 0 <= i < size a -> Z.testbit (ev (EOp "&" [a; b])) i = Z.testbit (ev a) i && Z.testbit (ev b) i.
  Proof. intros H. rewrite ev_and, testbit_wrap by lia. apply Z.land_spec. Qed.
  Lemma or_bit a b i : 0 <= i < size a -> Z.testbit (ev (EOp "|" [a; b])) i = Z.testbit (ev a) i || Z.testbit (ev b) i.
  Proof. intros H. rewrite ev_or, testbit_wrap by lia. apply Z.lor_spec. Qed.
  Lemma ev_ones e : 0 <= size e -> ev (int_from e (2 ^ size e - 1)) = Z.ones (size e).
  Proof. intros H. pose proof (pow2_pos _ H). rewrite Z.ones_equiv. apply ev_int_from. lia. Qed.
  Lemma not_bit e i : 0 <= i < size e -> Z.testbit (ev (e_not e)) i = negb (Z.testbit (ev e) i).
  Proof. intros H. unfold e_not. rewrite xor_bit, ev_ones, Z.ones_spec_low by lia. apply xorb_true_r. Qed.
  Lemma size_not e : size e <> 0 -> size (e_not e) = size e.
  Proof. intros H. unfold e_not. apply size_op. assumption. Qed.

  Lemma xor_b2z p q : wrap 1 (Z.lxor (Z.b2z p) (Z.b2z q)) = Z.b2z (xorb p q).
  Proof. destruct p, q; reflexivity. Qed.
  (** The lifter's carry and overflow expressions have one shape for add and sub: add puts d = ~(a ^ b), sub puts d = a ^ b. *)
  Section Formulas.
    Variables a b c d : expr.
    Variable n : Z.
    Hypothesis Hn : 0 < n.
    Hypothesis Sa : size a = n.
    Let bx := Z.testbit (ev a) (n - 1).
    Let by_ := Z.testbit (ev b) (n - 1).
    Let bz := Z.testbit (ev c) (n - 1).
    Let bd := Z.testbit (ev d) (n - 1).
    Let Sx e : size (e_xor a e) = n. Proof. unfold e_xor. rewrite size_op; lia. Qed.

    Lemma ev_of_shape : ev (msb (e_and (e_xor a c) d)) = Z.b2z (xorb bx bz && bd).
    Proof.
      assert (S : size (e_and (e_xor a c) d) = n) by (unfold e_and; rewrite size_op, Sx by (rewrite Sx; lia); reflexivity).
      rewrite ev_msb, S. unfold e_and. rewrite and_bit by (rewrite Sx; lia). unfold e_xor. rewrite xor_bit by lia. reflexivity.
    Qed.
    Lemma ev_cf_shape : ev (e_xor (msb (e_xor (e_xor a b) c)) (msb (e_and (e_xor a c) d))) = Z.b2z (xorb (xorb (xorb bx by_) bz) (xorb bx bz && bd)).
    Proof.
      assert (S : size (e_xor (e_xor a b) c) = n) by (unfold e_xor at 1; rewrite size_op, Sx by (rewrite Sx; lia); reflexivity).
      unfold e_xor at 1. rewrite ev_xor, ev_of_shape, ev_msb, S by (rewrite ?S; cbn [msb size]; lia).
      unfold e_xor. rewrite !xor_bit by (rewrite ?size_op; lia). replace (size (msb _)) with 1 by (cbn [msb size]; lia).
      apply xor_b2z.
    Qed.
  End Formulas.

  Lemma parity8_range v : 0 <= parity8 v <= 1.
  Proof. unfold parity8. set (m := (_ + _) mod 2). assert (0 <= m < 2) by (apply Z.mod_pos_bound; reflexivity). clearbody m. lia. Qed.

  (** the lifter's zero extension: zeros above the k low bits of x *)
  Lemma ev_zext z x k n : ev z = 0 -> ev (ECompose [(z, k, n); (x, 0, k)]) = wrap k (ev x).
  Proof.
    intros Z0. rewrite eval_compose. cbn [map fold_left]. unfold slot_val, slot_hi, slot_lo, slot_e. cbn [fst snd].
    rewrite Z0, wrap_0, Z.shiftl_0_l, !Z.lor_0_l, Z.shiftl_0_r, Z.sub_0_r. reflexivity.
  Qed.

  (** the carry-in operand of adc / sbb *)
  Definition ci : Z := wrap 1 (rho "cf").
  Lemma ci_range : 0 <= ci <= 1.
  Proof. pose proof (wrap_range 1 (rho "cf")). unfold ci. change (2 ^ 1) with 2 in *. lia. Qed.
  Lemma ev_cin a : ev (cin a) = ci.
  Proof. unfold cin. rewrite ev_zext by reflexivity. apply wrap_idem. Qed.

  Section Alu.
    Variables a b : expr.
    Variable n : Z.
    Hypothesis Oa : operand_ok a = true.
    Hypothesis Ob : operand_ok b = true.
    Hypothesis Sa : size a = n.
    Hypothesis Sb : size b = n.
    Let Hn : 0 < n. Proof. rewrite <- Sa. apply operand_range, Oa. Qed.
    Let Hx : 0 <= ev a < 2 ^ n. Proof. rewrite <- Sa. apply operand_range, Oa. Qed.
    Let Hy : 0 <= ev b < 2 ^ n. Proof. rewrite <- Sb. apply operand_range, Ob. Qed.

    Lemma val_add : ev (alu_val Add a b) = (ev a + ev b + 0) mod 2 ^ n.
    Proof. cbn [alu_val]. rewrite ev_add, Sa, Z.add_0_r by lia. reflexivity. Qed.
    Lemma val_adc : ev (alu_val Adc a b) = (ev a + ev b + ci) mod 2 ^ n.
    Proof.
      cbn [alu_val]. rewrite !ev_add, ev_cin, Sa, Sb by lia. unfold wrap. rewrite Z.add_mod_idemp_r by (apply Z.pow_nonzero; lia). f_equal. lia.
    Qed.
    Lemma val_sub : ev (alu_val Sub a b) = (ev a - ev b - 0) mod 2 ^ n.
    Proof. cbn [alu_val]. rewrite ev_sub, Sa, Z.sub_0_r by lia. reflexivity. Qed.
    Lemma val_sbb : ev (alu_val Sbb a b) = (ev a - ev b - ci) mod 2 ^ n.
    Proof. cbn [alu_val]. rewrite ev_sub, ev_add, ev_cin, Sa, Sb by lia. unfold wrap. rewrite Zminus_mod_idemp_r. f_equal. lia. Qed.
    Lemma size_val k : size (alu_val k a b) = n.
    Proof. destruct k; cbn [alu_val]; rewrite size_op by lia; exact Sa. Qed.
    Let Sab : size (e_xor a b) = n. Proof. unfold e_xor. rewrite size_op; lia. Qed.

    Theorem add_flags k (cin_ : Z) : (k = Add /\ cin_ = 0) \/ (k = Adc /\ cin_ = ci) ->
      let c := alu_val k a b in
      ev c = (ev a + ev b + cin_) mod 2 ^ n /\
      ev (add_cf_src a b c) = Z.b2z (cf_add n (ev a) (ev b) cin_) /\
      ev (add_of_src a b c) = Z.b2z (of_add n (ev a) (ev b) cin_).
    Proof.
      intros K c.
      assert (V : ev c = (ev a + ev b + cin_) mod 2 ^ n) by (destruct K as [[-> ->]|[-> ->]]; [apply val_add | apply val_adc]).
      assert (C : 0 <= cin_ <= 1) by (destruct K as [[_ ->]|[_ ->]]; [lia | apply ci_range]).
      destruct (carry_identities n (ev a) (ev b) cin_ Hn Hx Hy C) as [[I1 I2] _].
      unfold add_cf_src, add_of_src. rewrite (ev_cf_shape a b c _ n Hn Sa), (ev_of_shape a c _ n Hn Sa), not_bit by (rewrite Sab; lia).
      unfold e_xor. rewrite xor_bit, V, I1, I2 by lia.
      repeat split; reflexivity.
    Qed.
    Theorem sub_flags k (cin_ : Z) : ((k = Sub \/ k = Cmp) /\ cin_ = 0) \/ (k = Sbb /\ cin_ = ci) ->
      let c := alu_val k a b in
      ev c = (ev a - ev b - cin_) mod 2 ^ n /\
      ev (sub_cf_src a b c) = Z.b2z (cf_sub n (ev a) (ev b) cin_) /\
      ev (sub_of_src a b c) = Z.b2z (of_sub n (ev a) (ev b) cin_).
    Proof.
      intros K c.
      assert (V : ev c = (ev a - ev b - cin_) mod 2 ^ n) by (destruct K as [[[->| ->] ->]|[-> ->]]; [apply val_sub | apply val_sub | apply val_sbb]).
      assert (C : 0 <= cin_ <= 1) by (destruct K as [[_ ->]|[_ ->]]; [lia | apply ci_range]).
      destruct (carry_identities n (ev a) (ev b) cin_ Hn Hx Hy C) as [_ [I1 I2]].
      unfold sub_cf_src, sub_of_src. rewrite (ev_cf_shape a b c _ n Hn Sa), (ev_of_shape a c _ n Hn Sa).
      unfold e_xor. rewrite xor_bit, V, I1, I2 by lia.
      repeat split; reflexivity.
    Qed.
    (** and / test / or / xor: no reduction is needed, the operands being below 2^n *)
    Theorem logic_vals : ev (alu_val And a b) = Z.land (ev a) (ev b) /\ ev (alu_val Test a b) = Z.land (ev a) (ev b) /\
      ev (alu_val Or a b) = Z.lor (ev a) (ev b) /\ ev (alu_val Xor a b) = Z.lxor (ev a) (ev b).
    Proof.
      cbn [alu_val]. rewrite ev_and, ev_or, ev_xor, Sa by lia.
      repeat split; apply wrap_small; [apply land_lt_pow2 | apply land_lt_pow2 | apply lor_lt_pow2 | apply lxor_lt_pow2]; lia.
    Qed.
    Theorem znp_flags k : let c := alu_val k a b in
      ev (ECond c (i1 0) (i1 1)) = (if ev c =? 0 then 1 else 0) /\
      ev (msb c) = Z.b2z (Z.testbit (ev c) (n - 1)) /\
      ev (EOp "parity" [c]) = parity8 (ev c).
    Proof.
      intros c. pose proof (size_val k) as S. fold c in S. split; [|split].
      - rewrite ev_cond. destruct (ev c =? 0); reflexivity.
      - rewrite ev_msb, S. reflexivity.
      - pose proof (one_lt_pow2 _ Hn). pose proof (parity8_range (ev c)). rewrite ev_op1, S. apply (wrap_small n (parity8 (ev c))). lia.
    Qed.
  End Alu.
End Meaning.

Lemma list_expr_eqb_eval rho mu iota : forall l l', list_expr_eqb l l' = true -> map (eval rho mu iota) l = map (eval rho mu iota) l'.
Proof.
  induction l as [|x l IH]; destruct l' as [|y l']; simpl; intros H; try discriminate; [reflexivity|].
  apply andb_true_iff in H as [E R]. rewrite (eval_eqb rho mu iota x y E), (IH l' R). reflexivity.
Qed.
Lemma width_cases s : (s =? 8) || (s =? 16) || (s =? 32) = true -> s = 8 \/ s = 16 \/ s = 32.
Proof. rewrite !orb_true_iff, !Z.eqb_eq. tauto. Qed.
Lemma is_mirror_sound k l : is_mirror k l = true ->
  exists a b, operand_ok a = true /\ operand_ok b = true /\ size a = size b /\ (size a = 8 \/ size a = 16 \/ size a = 32) /\
              forall rho mu iota, map (eval rho mu iota) l = map (eval rho mu iota) (mirror k a b).
Proof.
  unfold is_mirror. destruct (operands_of k l) as [[a b]|]; [|discriminate]. rewrite !andb_true_iff, Z.eqb_eq. intros [[[[A B] S] W] L].
  exists a, b. repeat split; try assumption; [apply width_cases, W | intros; apply list_expr_eqb_eval, L].
Qed.
Lemma is_mirror_u_sound k l : is_mirror_u k l = true ->
  exists a, operand_ok a = true /\ (size a = 8 \/ size a = 16 \/ size a = 32) /\
            forall rho mu iota, map (eval rho mu iota) l = map (eval rho mu iota) (mirror_u k a).
Proof.
  unfold is_mirror_u. destruct (operand_of_u k l) as [a|]; [|discriminate]. rewrite !andb_true_iff. intros [[A W] L].
  exists a. split; [exact A|]. split; [apply width_cases, W | intros; apply list_expr_eqb_eval, L].
Qed.

(** the auxiliary-carry formula is NOT the processor's (kept by tests/test_emul.py, listed as a known finding): 0x10 + 0 *)
Example af_formula_refuted : exists rho, let a := EId "eax" 32 true false in let b := EId "ebx" 32 true false in
  eval rho (fun _ => 0) (fun _ _ => 0) (ECond (e_and (alu_val Add a b) (int_from (alu_val Add a b) 16)) (i1 1) (i1 0)) = 1 /\
  (rho "eax" mod 16 + rho "ebx" mod 16) / 16 = 0.
Proof. exists (fun n => if (n =? "eax")%string then 16 else 0). vm_compute. split; reflexivity. Qed.

(** inc / dec / neg are add and sub with a constant operand *)
Section Una.
  Variable rho : string -> Z.
  Variable mu : Z -> Z.
  Variable iota : string -> list Z -> Z.
  Notation ev := (eval rho mu iota).
  Variable a : expr.
  Hypothesis Oa : operand_ok a = true.
  Hypothesis Wa : size a = 8 \/ size a = 16 \/ size a = 32.

  Lemma const_ok k : operand_ok (una_const k a) = true /\ size (una_const k a) = size a.
  Proof. destruct k; (split; [apply Z.ltb_lt; cbn [una_const int_from]; lia | reflexivity]). Qed.
  (** the widths are at least 8, so 2^(n-1) is well above 1 *)
  Let half_big : 1 < 2 ^ (size a - 1) /\ 2 ^ size a = 2 * 2 ^ (size a - 1).
  Proof. split; [apply one_lt_pow2; lia | apply pow_split; lia]. Qed.

  Theorem inc_correct : let c := alu_val Add a (una_const Inc a) in
    ev c = (ev a + 1) mod 2 ^ size a /\ ev (add_of_src a (una_const Inc a) c) = Z.b2z (of_add (size a) (ev a) 1 0).
  Proof.
    destruct (const_ok Inc) as [Ob Sb]. intros c.
    destruct (add_flags rho mu iota a _ _ Oa Ob eq_refl Sb Add 0 (or_introl (conj eq_refl eq_refl))) as (V & _ & O).
    subst c. cbn [una_const] in *. rewrite ev_one in V, O by lia. split; [rewrite V; f_equal; lia | exact O].
  Qed.
  Theorem dec_correct : let c := alu_val Add a (una_const Dec a) in
    ev c = (ev a - 1) mod 2 ^ size a /\ ev (add_of_src a (una_const Dec a) c) = Z.b2z (of_sub (size a) (ev a) 1 0).
  Proof.
    destruct (const_ok Dec) as [Ob Sb]. intros c. destruct half_big as [B E].
    destruct (add_flags rho mu iota a _ _ Oa Ob eq_refl Sb Add 0 (or_introl (conj eq_refl eq_refl))) as (V & _ & O).
    subst c. cbn [una_const] in *. rewrite ev_int_from in V, O by lia. split.
    - rewrite V. replace (ev a + (2 ^ size a - 1) + 0) with ((ev a - 1) + 1 * 2 ^ size a) by lia. apply Z.mod_add. lia.
    - (* adding 2^n - 1 is subtracting 1: its signed reading is -1 *)
      assert (S1 : sgnv (size a) (2 ^ size a - 1) = -1) by (unfold sgnv; rewrite E; cmp_cases).
      assert (S2 : sgnv (size a) 1 = 1) by (unfold sgnv; cmp_cases).
      rewrite O. unfold of_add, of_sub. rewrite S1, S2. replace (sgnv (size a) (ev a) + -1 + 0) with (sgnv (size a) (ev a) - 1 - 0) by lia. reflexivity.
  Qed.
  Theorem neg_correct : let c := alu_val Sub (una_const Neg a) a in
    ev c = (- ev a) mod 2 ^ size a /\ ev (sub_cf_src (una_const Neg a) a c) = Z.b2z (negb (ev a =? 0)) /\
    ev (sub_of_src (una_const Neg a) a c) = Z.b2z (of_sub (size a) 0 (ev a) 0).
  Proof.
    destruct (const_ok Neg) as [Ob Sb]. intros c. destruct half_big as [B E]. destruct (operand_range rho mu iota a Oa) as [_ R].
    destruct (sub_flags rho mu iota _ a _ Ob Oa Sb eq_refl Sub 0 (or_introl (conj (or_introl eq_refl) eq_refl))) as (V & C & O).
    subst c. cbn [una_const] in *. rewrite ev_int_from in V, C, O by lia. split; [rewrite V; f_equal; lia|]. split; [|exact O].
    rewrite C. f_equal. unfold cf_sub. destruct (Z.eqb_spec (ev a) 0) as [->|N]; [reflexivity | apply Z.ltb_lt; lia].
  Qed.
End Una.

(** The destination write-back: assigning to a sub-register replaces exactly its bits. *)
Section WriteBack.
  Variable rho : string -> Z.
  Variable mu : Z -> Z.
  Variable iota : string -> list Z -> Z.
  Notation ev := (eval rho mu iota).

  (** a field cut from a register and put back in place shows the register's bits there and nothing elsewhere *)
  Lemma reg_field_bits nm w rg tm lo hi i : 0 <= lo -> lo <= hi -> hi <= w ->
    Z.testbit (Z.shiftl (wrap (hi - lo) (ev (ESlice (EId nm w rg tm) lo hi))) lo) i = (lo <=? i) && (i <? hi) && Z.testbit (rho nm) i.
  Proof.
    intros Hlo Hlh Hhw. rewrite testbit_slot by lia. replace (lo + (hi - lo)) with hi by lia.
    destruct (Z.leb_spec lo i) as [L|L], (Z.ltb_spec i hi) as [M|M]; try reflexivity. cbn [andb eval].
    rewrite testbit_wrap, Z.shiftr_spec, testbit_wrap by lia. f_equal. lia.
  Qed.

  Theorem mk_aff_slice_bits nm w rg tm lo hi src : 0 <= lo -> lo < hi -> hi <= w ->
    match mk_aff (ESlice (EId nm w rg tm) lo hi) src with
    | EAff d s => d = EId nm w rg tm /\
        forall i, 0 <= i ->
          Z.testbit (ev s) i = if (lo <=? i) && (i <? hi) then Z.testbit (ev src) (i - lo)
                               else (i <? w) && Z.testbit (rho nm) i
    | _ => False
    end.
  Proof.
    intros Hlo Hlh Hhw. unfold mk_aff. cbn [size]. split; [reflexivity|]. intros i Hi.
    set (r := EId nm w rg tm). set (fld e a b := Z.shiftl (wrap (b - a) (ev e)) a).
    (* the constructor leaves out the field below lo when lo = 0 and the one above hi when hi = w: either is then empty,
       so in all four cases the value is the OR of the three fields *)
    assert (Z0 : forall e k k', k = k' -> fld e k k' = 0) by (intros e k k' <-; unfold fld, wrap; rewrite Z.sub_diag, Z.mod_1_r; apply Z.shiftl_0_l).
    match goal with |- Z.testbit (ev ?s) i = _ => assert (E : ev s = Z.lor (Z.lor (fld (ESlice r 0 lo) 0 lo) (fld src lo hi)) (fld (ESlice r hi w) hi w)) end.
    { destruct (Z.eqb_spec lo 0) as [L0|L0], (Z.ltb_spec hi w) as [Hw|Hw]; cbn [app]; rewrite eval_compose; cbn [map fold_left].
      all: unfold slot_val, slot_e, slot_lo, slot_hi; cbn [fst snd].
      all: rewrite ?(Z0 _ 0 lo), ?(Z0 _ hi w), ?Z.lor_0_l, ?Z.lor_0_r by lia; reflexivity. }
    rewrite E. unfold fld, r. rewrite !Z.lor_spec, !reg_field_bits, testbit_slot by lia. replace (lo + (hi - lo)) with hi by lia.
    rewrite (Z.ltb_antisym lo i), (Z.ltb_antisym hi i).
    destruct (Z.leb_spec lo i), (Z.leb_spec hi i), (Z.ltb_spec i w), (Z.leb_spec 0 i); cbn [andb orb negb]; rewrite ?orb_false_r; try reflexivity; lia.
  Qed.
End WriteBack.
