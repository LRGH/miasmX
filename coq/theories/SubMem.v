(** SubMem.v — the geometry of substract_mems (miasmx/expression/expression_eval_abstract.py), the routine that decides what remains
    of a stored memory cell a = [a, a + aw) once an overlapping cell b = [b, b + bw) is written (C07, overlapping memory):
    (1) the pieces the model EvalAbs.substract_mems returns are, in order, the slices cellv[lo:hi] for the bit ranges computed by
        sub_geom from the two widths and the byte distance d = b - a alone;
    (2) for every overlapping placement those ranges are pairwise disjoint, lie inside the old cell, and cover exactly the bits of
        the old cell that the new cell does not overwrite. *)
From Coq Require Import ZArith List Bool String Lia.
From Mx Require Import Expr Simp SimpProofs EvalAbs FuelProofs.
Import ListNotations.
Open Scope Z_scope.

(** bit ranges [lo, hi) of the old cell that survive, as substract_mems computes them *)
Definition sub_geom (aw bw d : Z) : list (Z * Z) :=
  if d <? 0 then let ss := bw + d * 8 in if ss >=? aw then [] else [(ss, aw)]
  else (if d >? 0 then [(0, d * 8)] else []) ++ (if d * 8 + bw <? aw then [(d * 8 + bw, aw)] else []).

Definition covered (l : list (Z * Z)) (i : Z) : Prop := exists p, In p l /\ fst p <= i < snd p.

(** the ranges kept: the part of the old cell below the new one and the part above it, each when it is not empty *)
Lemma In_sub_geom aw bw d p : In p (sub_geom aw bw d) <->
  (p = (0, d * 8) /\ 0 < d) \/ (p = (d * 8 + bw, aw) /\ d * 8 + bw < aw).
Proof.
  unfold sub_geom. destruct (Z.ltb_spec d 0) as [N|N].
  - cbv zeta. rewrite (Z.add_comm bw). destruct (Z.geb_spec (d * 8 + bw) aw) as [G|G]; cbn [In]; intuition (congruence || lia).
  - rewrite in_app_iff. destruct (Z.gtb_spec d 0) as [P|P]; destruct (Z.ltb_spec (d * 8 + bw) aw) as [T|T]; cbn [In]; intuition (congruence || lia).
Qed.
(** (2) the partition property; the cells overlap when -bw < 8 d < aw *)
Theorem sub_geom_partition aw bw d : 0 < aw -> 0 < bw -> - bw < d * 8 < aw ->
  (forall p, In p (sub_geom aw bw d) -> 0 <= fst p < snd p /\ snd p <= aw) /\
  (forall i, 0 <= i < aw -> (covered (sub_geom aw bw d) i <-> ~ (d * 8 <= i < d * 8 + bw))) /\
  (forall p q, In p (sub_geom aw bw d) -> In q (sub_geom aw bw d) -> p <> q -> snd p <= fst q \/ snd q <= fst p).
Proof.
  intros Ha Hb [Ho Ho']. split; [|split].
  - intros p Hp. apply In_sub_geom in Hp as [[-> H]|[-> H]]; cbn; lia.
  - intros i Hi. unfold covered. split.
    + intros (p & Hp & Hr). apply In_sub_geom in Hp as [[-> H]|[-> H]]; cbn in Hr; lia.
    + intros H. destruct (Z_lt_le_dec i (d * 8)) as [L|L].
      * exists (0, d * 8). split; [apply In_sub_geom; left; split; [reflexivity | lia] | cbn; lia].
      * exists (d * 8 + bw, aw). split; [apply In_sub_geom; right; split; [reflexivity | lia] | cbn; lia].
  - intros p q Hp Hq Hn. apply In_sub_geom in Hp as [[-> Hp]|[-> Hp]], Hq as [[-> Hq]|[-> Hq]]; cbn; try congruence; lia.
Qed.

(** (1) the model returns one piece per range, in order: its value is the slice of that range, and its cell has the length of the
    range as width when the stored value has the width of its cell *)
Lemma substract_mems_pieces fuel s aaddr aw sg cellv baddr bw pieces :
  substract_mems fuel s (EMem aaddr aw sg) cellv baddr bw = okx pieces ->
  exists dv sgd wd, (dox y <- eval_expr fuel s (EOp "-" [baddr; aaddr]); lift (simpF y)) = okx (EInt sgd wd dv) /\
    Forall2 (fun p pc => snd pc = getitem cellv (fst p) (snd p) /\ (size cellv = aw -> 0 < bw -> size (fst pc) = snd p - fst p))
      (sub_geom aw bw (int32_of dv)) pieces.
Proof.
  unfold substract_mems. intros H. apply bindx_ok in H as [d [Ed H]]. destruct d as [sgd wd dv| | | | | | |]; try discriminate.
  exists dv, sgd, wd. split; [exact Ed|]. unfold sub_geom. set (pd := int32_of dv) in *. destruct (Z.ltb_spec pd 0) as [N|N].
  - cbv zeta. destruct (bw + pd * 8 >=? aw); [injection H as <-; constructor|]. apply bindx_ok in H as [rp [_ H]]. injection H as <-.
    repeat constructor.
  - apply bindx_ok in H as [py [Epy H]]. injection H as <-. apply Forall2_app.
    + destruct (pd >? 0); repeat constructor. intros _ _. cbn. lia.
    + destruct (Z.ltb_spec (pd * 8 + bw) aw) as [T|T]; [|injection Epy as <-; constructor]. apply bindx_ok in Epy as [ex [_ Epy]]. injection Epy as <-.
      repeat constructor. intros Sc Hb. cbn [fst snd size]. rewrite Sc, !clip_id by lia. reflexivity.
Qed.
(** and the value of a returned slice is that bit range of the stored value *)
Theorem getitem_value rho mu iota cellv lo hi : 0 <= lo <= hi -> hi <= size cellv ->
  eval rho mu iota (getitem cellv lo hi) = (Z.shiftr (eval rho mu iota cellv) lo) mod 2 ^ (hi - lo).
Proof. intros H1 H2. rewrite getitem_slice by lia. reflexivity. Qed.

Lemma In_range_from i : forall n lo, In i (range_from lo n) <-> lo <= i < lo + Z.of_nat n.
Proof.
  induction n as [|n IH]; intros lo; cbn [range_from]; [split; [intros [] | lia]|]. split.
  - intros [<-|H]; [lia|]. apply IH in H. lia.
  - intros H. destruct (Z.eq_dec i lo) as [->|N]; [left; reflexivity | right; apply IH; lia].
Qed.
(** the window get_mem_overlapping scans (byte offsets -7 .. w/8 - 1 from the written address) together with its filter
    (a cell starting before the written address is dropped when 8 * distance >= its width) finds exactly the overlapping cells,
    for stored cells of at most 64 bits; [8 * (- i)] is the model's [8 * int32_of dv], the candidate at offset i lying dv = - i
    bytes before the written address *)
Theorem overlap_window_exact w cw i : 0 < w -> w mod 8 = 0 -> 0 < cw <= 64 ->
  (In i (range_from (-7) (Z.to_nat (7 + w / 8))) /\ (8 * (- i) >=? cw) = false) <-> (i * 8 < w /\ 0 < i * 8 + cw).
Proof.
  intros Hw H8 Hc. rewrite In_range_from. assert (E : w = 8 * (w / 8)) by (apply Z.div_exact; lia). assert (Q : 0 < w / 8) by lia.
  rewrite Z2Nat.id by lia. destruct (Z.geb_spec (8 * - i) cw) as [G|G]; split; intros H; try lia.
Qed.

(** what get_mem_overlapping reports: every reported (offset, cell) comes from the scanned window, is the cell stored at the address
    the offset evaluates to, and passed the distance filter; conversely every stored cell met in the window that passes the filter
    is reported *)
Lemma mapX_In {A B} (f : A -> res B + xerr) : forall l r, mapX f l = okx r -> forall b, In b r <-> exists a, In a l /\ f a = okx b.
Proof.
  induction l as [|a0 l IH]; intros r H b; cbn [mapX] in H; [injection H as <-; split; [intros [] | intros (a & [] & _)]|].
  apply bindx_ok in H as [b0 [Eb H]]. apply bindx_ok in H as [r' [Er H]]. injection H as <-. cbn [In]. rewrite (IH r' Er b). split.
  - intros [<-|(a & Ha & Ea)]; [exists a0 | exists a]; (split; [tauto | assumption]).
  - intros (a & [<-|Ha] & Ea); [left; rewrite Eb in Ea; injection Ea as <-; reflexivity | right; exists a; split; assumption].
Qed.

Section Scan.
  Variables (evs : expr -> res expr + xerr) (m : list (expr * (expr * expr))) (a_val : expr).
  (** a scan that succeeds has collected, candidate by candidate, the cells that pass the filter *)
  Definition hit (t : Z * expr) : list (Z * (expr * expr)) :=
    match adict_get m (snd t), evs (mk_sub a_val (snd t)) with
    | Some (cell, v), inl (Ok (EInt _ _ dv)) => if 8 * int32_of dv >=? size v then [] else [(fst t, (cell, v))]
    | _, _ => []
    end.
  Lemma scan_hits : forall tests ov, scan evs m a_val tests = okx ov -> ov = flat_map hit tests.
  Proof.
    induction tests as [|[j x] tests IH]; intros ov H; cbn [scan] in H; [injection H as <-; reflexivity|].
    cbn [flat_map]. unfold hit at 1. cbn [fst snd]. destruct (adict_get m x) as [[c v]|]; [|exact (IH ov H)].
    apply bindx_ok in H as [d [-> H]]. destruct d as [sg wd dv| | | | | | |]; try discriminate. apply bindx_ok in H as [tl [Etl H]].
    rewrite <- (IH tl Etl). unfold okx. destruct (8 * int32_of dv >=? size v); injection H as <-; reflexivity.
  Qed.
  Lemma In_hit i x j cell v : In (j, (cell, v)) (hit (i, x)) <->
    j = i /\ adict_get m x = Some (cell, v) /\ exists sg wd dv, evs (mk_sub a_val x) = okx (EInt sg wd dv) /\ (8 * int32_of dv >=? size v) = false.
  Proof.
    unfold hit. cbn [fst snd]. split.
    - destruct (adict_get m x) as [[c0 v0]|]; [|intros []]. destruct (evs (mk_sub a_val x)) as [[[sg wd dv| | | | | | |]| |]|]; try (intros []).
      destruct (8 * int32_of dv >=? size v0) eqn:F; [intros []|]. intros [E|[]]. injection E as <- <- <-.
      split; [reflexivity|]. split; [reflexivity|]. exists sg, wd, dv. split; [reflexivity | exact F].
    - intros (-> & -> & sg & wd & dv & -> & F). unfold okx. rewrite F. left. reflexivity.
  Qed.
End Scan.

Section Overlap.
  Variables (fuel : nat) (s : pool) (a_val : expr) (w : Z).
  Let evs x := (dox y <- eval_expr fuel s x; lift (simpF y)).
  Definition reported (i : Z) (x cell v : expr) : Prop :=
    evs (mk_add a_val i) = okx x /\ adict_get (pool_mem s) x = Some (cell, v) /\
    exists sg wd dv, evs (mk_sub a_val x) = okx (EInt sg wd dv) /\ (8 * int32_of dv >=? size v) = false.
  Theorem mem_overlapping_exact ov : mem_overlapping fuel s a_val w = okx ov ->
    forall i cell v, In (i, (cell, v)) ov <-> (In i (range_from (-7) (Z.to_nat (7 + w / 8))) /\ exists x, reported i x cell v).
  Proof.
    rewrite mem_overlapping_scan. change (evs_of (eval_expr fuel s)) with evs. intros H i cell v. apply bindx_ok in H as [tests [Et H]].
    rewrite (scan_hits _ _ _ tests ov H), in_flat_map. split.
    - intros ([j x] & Hin & Hh). apply In_hit in Hh as [-> K]. apply (mapX_In _ _ _ Et) in Hin as (i0 & Hi & E).
      apply bindx_ok in E as (x' & Ex & E). injection E as <- <-. split; [exact Hi|]. exists x'. split; [exact Ex | exact K].
    - intros (Hi & x & Ex & K). exists (i, x). split; [|apply In_hit; split; [reflexivity | exact K]].
      apply (mapX_In _ _ _ Et). exists i. split; [exact Hi|]. cbv beta. rewrite Ex. reflexivity.
  Qed.
End Overlap.
