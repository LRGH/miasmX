(** SemCtlProofs.v — what the near control-transfer mirror of SemCtl.v means: stack-pointer arithmetic modulo 2^32. *)
From Coq Require Import ZArith List Bool String Lia.
From Mx Require Import Expr SemProofs SemMov SemMovProofs SemCtl.
Import ListNotations.
Open Scope Z_scope.

Section Meaning.
  Variable rho : string -> Z.
  Variable mu : Z -> Z.
  Variable iota : string -> list Z -> Z.
  Notation ev := (eval rho mu iota).

  (** call: the return address goes to esp - 4, which becomes the stack pointer *)
  Theorem call_esp : ev (EOp "+" [esp; EInt false 32 4294967292]) = (rho "esp" - 4) mod 2 ^ 32.
  Proof.
    rewrite esp_plus. replace (rho "esp" + 4294967292) with (rho "esp" - 4 + 1 * 2 ^ 32) by (change (2 ^ 32) with 4294967296; lia).
    apply Z.mod_add. discriminate.
  Qed.
  (** ret imm: the stack pointer moves past the return address and imm bytes of arguments *)
  Theorem ret_esp a : ev (EOp "+" [esp; EOp "+" [EInt false 32 4; a]]) = (rho "esp" + 4 + ev a) mod 2 ^ 32.
  Proof.
    rewrite !ev_add by discriminate. change (ev (EInt false 32 4)) with 4. change (ev esp) with (wrap 32 (rho "esp")).
    unfold wrap. cbn [size esp]. rewrite Zplus_mod_idemp_r, Zplus_mod_idemp_l. f_equal. lia.
  Qed.
  (** leave: esp := ebp + 4 *)
  Theorem leave_esp : ev (EOp "+" [EInt false 32 4; ebp]) = (rho "ebp" + 4) mod 2 ^ 32.
  Proof.
    rewrite ev_add by discriminate. change (ev (EInt false 32 4)) with 4. change (ev ebp) with (wrap 32 (rho "ebp")).
    unfold wrap. cbn [size]. rewrite Zplus_mod_idemp_r. f_equal. lia.
  Qed.
End Meaning.
