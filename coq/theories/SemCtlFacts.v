(** SemCtlFacts.v — reflection obligation: every near call / ret / leave / jmp form with 32-bit operand size of the lifted dump regenerated
    from /repo is, node for node, the mirror SemCtl.mirror_ctl of its dumped operands and next-instruction address. *)
From Coq Require Import ZArith List Bool.
From Mx Require Import Expr Wf SemCtl LiftTie.
From MxGen Require Import LiftAll.
Import ListNotations.
Definition ctl_tie_ok : lcase -> bool := tie ctl_of (fun k c l => eq_mirror false (mirror_ctl k (lc_o16 c) (lc_next c) (lc_args c)) l).
Lemma ctl_forms_are_mirrors : forallb (forallb ctl_tie_ok) shards = true.
Proof. vm_compute. reflexivity. Qed.
Lemma ctl_forms_lifted : forall sh c k l, In sh shards -> In c sh -> ctl_of (lc_mnemo c) = Some k -> lc_lift c = Some l ->
  mirror_ctl k (lc_o16 c) (lc_next c) (lc_args c) = None \/
  exists m, mirror_ctl k (lc_o16 c) (lc_next c) (lc_args c) = Some m /\ forall rho mu iota, map (eval rho mu iota) l = map (eval rho mu iota) m.
Proof. intros sh c k l Hs Hc Hk Hl. exact (eq_mirror_lax _ _ (tie_In _ _ _ ctl_forms_are_mirrors sh c k l Hs Hc Hk Hl)). Qed.
Definition n_ctl : nat :=
  fold_left (fun acc sh => fold_left (fun acc c => match ctl_of (lc_mnemo c), lc_lift c with Some k, Some l => match mirror_ctl k (lc_o16 c) (lc_next c) (lc_args c) with Some _ => S acc | None => acc end | _, _ => acc end) sh acc) shards O.
Lemma many_ctl_forms : (40 <= n_ctl)%nat.
Proof. apply Nat.leb_le. vm_compute. reflexivity. Qed.
