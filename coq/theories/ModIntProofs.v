(** ModIntProofs.v — the fixed-width integer classes (C14): [norm] is the reduction modulo 2^w into the class's range; every
    operator, direct or reflected, computes the exact result and reduces it into the wider class; errors, comparisons and hashes
    are those of the represented values. *)
From Coq Require Import ZArith Bool Lia.
From Mx Require Import ModInt.
Open Scope Z_scope.

Definition wf_cls (c : cls) : Prop := 1 <= c_w c.

Lemma limit_even c : wf_cls c -> exists h, limit c = 2 * h /\ 0 < h.
Proof.
  unfold wf_cls, limit. intros H. exists (2 ^ (c_w c - 1)). split.
  - replace (c_w c) with (1 + (c_w c - 1)) at 1 by lia.
    rewrite Z.pow_add_r by lia. reflexivity.
  - apply Z.pow_pos_nonneg; lia.
Qed.

Lemma limit_pos c : wf_cls c -> 0 < limit c.
Proof. intros H. destruct (limit_even c H) as [h [E P]]. lia. Qed.

(** the constructor always lands in the class's range *)
Lemma norm_in_range c z : wf_cls c -> in_range c (norm c z).
Proof.
  intros H. destruct (limit_even c H) as [h [E P]].
  unfold norm, in_range. pose proof (Z.mod_pos_bound z (limit c) ltac:(lia)) as B.
  destruct (c_sg c); [destruct (Z.geb_spec (2 * (z mod limit c)) (limit c))|]; lia.
Qed.

(** ... on a representative of the same residue class modulo 2^w *)
Lemma norm_congr c z : wf_cls c -> exists k, norm c z = z + k * limit c.
Proof.
  intros H. pose proof (limit_pos c H) as P. unfold norm.
  pose proof (Z.div_mod z (limit c) ltac:(lia)) as D.
  destruct (c_sg c); [destruct (2 * (z mod limit c) >=? limit c)|].
  - exists (- (z / limit c) - 1). lia.
  - exists (- (z / limit c)). lia.
  - exists (- (z / limit c)). lia.
Qed.

Lemma norm_mod c z : wf_cls c -> (norm c z) mod limit c = z mod limit c.
Proof.
  intros H. destruct (norm_congr c z H) as [k E]. rewrite E.
  apply Z.mod_add. pose proof (limit_pos c H). lia.
Qed.

(** and that representative is unique: [norm] is THE reduction modulo 2^w into the range *)
Lemma range_unique c a b : wf_cls c -> in_range c a -> in_range c b ->
  a mod limit c = b mod limit c -> a = b.
Proof.
  intros H Ha Hb E. pose proof (limit_pos c H) as P.
  destruct (limit_even c H) as [h [Eh Ph]].
  unfold in_range in *.
  assert (exists k, a = b + k * limit c) as [k Ek].
  { exists (a / limit c - b / limit c).
    pose proof (Z.div_mod a (limit c) ltac:(lia)). pose proof (Z.div_mod b (limit c) ltac:(lia)). lia. }
  assert (- limit c < k * limit c < limit c) by (destruct (c_sg c); lia).
  assert (-1 < k < 1) by nia. assert (k = 0) as -> by lia. lia.
Qed.

Lemma norm_unique c a z : wf_cls c -> in_range c a -> a mod limit c = z mod limit c -> a = norm c z.
Proof.
  intros H Ha E. apply (range_unique c); auto using norm_in_range.
  rewrite norm_mod; auto.
Qed.

Lemma norm_idem c v : wf_cls c -> in_range c v -> norm c v = v.
Proof. intros H Hv. symmetry. apply norm_unique; auto. Qed.

Lemma in_rangeb_spec c v : in_rangeb c v = true <-> in_range c v.
Proof. unfold in_rangeb, in_range. generalize (limit c); intros L.
  destruct (c_sg c); rewrite andb_true_iff, Z.leb_le, Z.ltb_lt; tauto. Qed.

(** maxcast: the wider class; on equal widths the right operand's class *)
Lemma maxcast_wider c1 c2 :
  c_w (maxcast c1 c2) = Z.max (c_w c1) (c_w c2) /\
  (c_w c1 > c_w c2 -> maxcast c1 c2 = c1) /\ (c_w c1 <= c_w c2 -> maxcast c1 c2 = c2).
Proof.
  unfold maxcast. destruct (Z.gtb_spec (c_w c1) (c_w c2)); repeat split; intros; try reflexivity; lia.
Qed.

Lemma maxcast_wf c1 c2 : wf_cls c1 -> wf_cls c2 -> wf_cls (maxcast c1 c2).
Proof. unfold maxcast. destruct (c_w c1 >? c_w c2); auto. Qed.

Definition result_class (c : cls) (y : operand) : cls :=
  match y with MI c2 _ => maxcast c c2 | PY _ => c end.

Definition operand_wf (y : operand) : Prop :=
  match y with MI c2 v2 => wf_cls c2 /\ in_range c2 v2 | PY _ => True end.

Lemma result_class_wf c y : wf_cls c -> operand_wf y -> wf_cls (result_class c y).
Proof. destruct y; simpl; intros; auto. apply maxcast_wf; tauto. Qed.

(** the method body with the class and value of the right operand named *)
Lemma binop_apply_eq op c v y :
  binop_apply op c v y =
  match exact op v (operand_val y) with
  | inr e => RErr e
  | inl None => RErr EValue
  | inl (Some r) => match op with RPow => RInt r | _ => RMI (result_class c y) (norm (result_class c y) r) end
  end.
Proof. destruct y; reflexivity. Qed.

(** C14, main statement: every binary operator (direct or reflected, except the plain-int
    valued __rpow__) returns the class [result_class] holding THE representative of the exact
    result modulo 2^w *)
Lemma binop_exact op c v y r :
  wf_cls c -> operand_wf y -> op <> RPow ->
  exact op v (operand_val y) = inl (Some r) ->
  exists v', binop_apply op c v y = RMI (result_class c y) v' /\
             in_range (result_class c y) v' /\
             v' mod limit (result_class c y) = r mod limit (result_class c y) /\
             (forall u, in_range (result_class c y) u ->
                        u mod limit (result_class c y) = r mod limit (result_class c y) -> u = v').
Proof.
  intros Hc Hy Hop Hex.
  pose proof (result_class_wf c y Hc Hy) as Hrc.
  exists (norm (result_class c y) r).
  split; [|split; [apply norm_in_range; auto | split; [apply norm_mod; auto|]]].
  - rewrite binop_apply_eq, Hex. destruct op; try reflexivity. congruence.
  - intros u Hu Eu. apply norm_unique; auto.
Qed.

Lemma rpow_exact c v y r : exact RPow v (operand_val y) = inl (Some r) ->
  binop_apply RPow c v y = RInt r.
Proof.
  intros H. rewrite binop_apply_eq, H. reflexivity.
Qed.

(** errors are exactly Python's: negative shift count, zero modulus *)
Lemma binop_error op c v y e : exact op v (operand_val y) = inr e -> binop_apply op c v y = RErr e.
Proof.
  intros H. rewrite binop_apply_eq, H. reflexivity.
Qed.

(** mixing with a plain integer keeps the class; mixing two classes gives the wider *)
Lemma mixed_int_keeps_class c z : result_class c (PY z) = c.
Proof. reflexivity. Qed.
Lemma mixed_widths_wider c c2 v2 : c_w (result_class c (MI c2 v2)) = Z.max (c_w c) (c_w c2).
Proof. simpl. apply maxcast_wider. Qed.

(** reflected operators: [y rop x] performs the direct exact operation with swapped operands *)
Definition reflect (op : binop) : option binop :=
  match op with
  | Add => Some RAdd | Sub => Some RSub | Mul => Some RMul | And => Some RAnd | Or => Some ROr
  | Xor => Some RXor | Shl => Some RShl | Shr => Some RShr | Mod => Some RMod | Pow => Some RPow
  | _ => None
  end.

Lemma reflected_exact op rop a b : reflect op = Some rop ->
  exact rop a b = exact op b a.
Proof.
  destruct op; simpl; intros H; inversion H; subst; simpl; try reflexivity;
  f_equal; f_equal; try lia; try apply Z.land_comm; try apply Z.lor_comm; try apply Z.lxor_comm.
Qed.

Lemma mod_eq_norm c a b : wf_cls c -> a mod limit c = b mod limit c -> norm c a = norm c b.
Proof.
  intros H E. apply norm_unique; auto using norm_in_range. rewrite norm_mod; auto.
Qed.

(** for the ring operators, the reflected form with a plain integer agrees with first converting
    the integer to the class and then using the direct operator *)
Lemma reflected_ring_agree op rop c v z : wf_cls c ->
  (op = Add \/ op = Sub \/ op = Mul) -> reflect op = Some rop ->
  binop_apply rop c v (PY z) = binop_apply op c (norm c z) (MI c v).
Proof.
  intros H Hop Hr. pose proof (limit_pos c H) as P.
  assert (maxcast c c = c) as Mc by (unfold maxcast; destruct (c_w c >? c_w c); reflexivity).
  destruct (norm_congr c z H) as [k Ek].
  destruct Hop as [Hop|[Hop|Hop]]; subst op; simpl in Hr; inversion Hr; subst rop;
    unfold binop_apply; simpl; rewrite Mc; f_equal; apply mod_eq_norm; auto; rewrite Ek.
  - replace (z + k * limit c + v) with (v + z + k * limit c) by lia. rewrite Z.mod_add by lia. reflexivity.
  - replace (z + k * limit c - v) with (z - v + k * limit c) by lia. rewrite Z.mod_add by lia. reflexivity.
  - replace ((z + k * limit c) * v) with (v * z + (k * v) * limit c) by lia. rewrite Z.mod_add by lia. reflexivity.
Qed.

Lemma unop_exact op c v : wf_cls c -> op <> ToInt ->
  let r := match op with Inv => Z.lnot v | Neg => - v | Abs => Z.abs v | ToInt => v end in
  exists v', unop_apply op c v = RMI c v' /\ in_range c v' /\ v' mod limit c = r mod limit c.
Proof.
  intros H Hop. destruct op; simpl; try congruence;
  eexists; (split; [reflexivity | split; [apply norm_in_range; auto | apply norm_mod; auto]]).
Qed.

Lemma toint_exact c v : unop_apply ToInt c v = RInt v.
Proof. reflexivity. Qed.

(** comparisons are the comparisons of the represented values *)
Lemma cmp_is_Z_cmp op c v y :
  cmp_apply op c v y = RBool (match op with
    | CEq => v =? operand_val y | CNe => negb (v =? operand_val y)
    | CLt => v <? operand_val y | CLe => v <=? operand_val y
    | CGt => v >? operand_val y | CGe => v >=? operand_val y end).
Proof.
  assert (L : forall a b, (a =? b) || (a <? b) = (a <=? b)).
  { intros a b. destruct (Z.eqb_spec a b), (Z.ltb_spec a b), (Z.leb_spec a b); try reflexivity; lia. }
  unfold cmp_apply. destruct op; f_equal; try reflexivity.
  - apply L.
  - rewrite L, Z.gtb_ltb. symmetry. apply Z.ltb_antisym.
  - rewrite Z.geb_leb. symmetry. apply Z.leb_antisym.
Qed.

(** equal values hash equally, whatever the host hash function *)
Lemma eq_hash (h : Z -> Z) c v y :
  cmp_apply CEq c v y = RBool true -> hash_apply h v = hash_apply h (operand_val y).
Proof. unfold cmp_apply, hash_apply. intros H. injection H as H. apply Z.eqb_eq in H. f_equal. exact H. Qed.

(** non-vacuity: a concrete class and values meeting all hypotheses *)
Example binop_exact_nonvacuous :
  wf_cls (Cls true 8) /\ operand_wf (MI (Cls false 16) 65535) /\
  binop_apply Add (Cls true 8) (-128) (MI (Cls false 16) 65535) = RMI (Cls false 16) 65407.
Proof. unfold wf_cls, operand_wf, in_range; simpl. repeat split; try lia; vm_compute; congruence. Qed.
