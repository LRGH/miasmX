(** SemMulDivProofs.v — what the multiply / divide mirror of SemMulDiv.v means under Expr.eval, whose interpretation of the lifter's
    named wide operators is Expr.named_op: the double-width product, the truncated product, quotient and remainder. *)
From Coq Require Import ZArith List Bool String Lia.
From Mx Require Import Expr ExprProofs Bits Sem SemProofs SemStr SemMisc SemMulDiv.
Import ListNotations.
Open Scope Z_scope.

Lemma hi_lo_split n P : 0 <= n -> wrap n (Z.shiftr P n) * 2 ^ n + wrap n P = P mod 2 ^ (2 * n).
Proof.
  intros Hn. pose proof (pow2_pos n Hn). unfold wrap. rewrite Z.shiftr_div_pow2, pow2_double, Z.rem_mul_r by lia. lia.
Qed.

(** What Expr.named_op computes, under names.  The wide products at 16 and 32 bits, by the names of their four operators: *)
Inductive mul_names : Z -> string -> string -> string -> string -> Prop :=
| mul_names16 : mul_names 16 "umul16_hi" "umul16_lo" "imul16_hi" "imul16_lo"
| mul_names32 : mul_names 32 "umul32_hi" "umul32_lo" "imul32_hi" "imul32_lo".
Lemma named_mul n uh ul sh sl : mul_names n uh ul sh sl -> forall a b,
  named_op uh [a; b] = Some (Z.shiftr (wrap n a * wrap n b) n) /\ named_op ul [a; b] = Some (wrap n (wrap n a * wrap n b)) /\
  named_op sh [a; b] = Some (wrap n (Z.shiftr (sgn n a * sgn n b) n)) /\ named_op sl [a; b] = Some (wrap n (sgn n a * sgn n b)).
Proof. intros [] a b; repeat split; reflexivity. Qed.
Lemma named_umul08 a b : named_op "umul08" [a; b] = Some (wrap 8 a * wrap 8 b). Proof. reflexivity. Qed.
Lemma named_imul08 a b : named_op "imul08" [a; b] = Some (wrap 16 (sgn 8 a * sgn 8 b)). Proof. reflexivity. Qed.

(** the double-width dividend hi:lo, and quotient and remainder, which are 0 for a zero divisor *)
Definition big (n hi lo : Z) : Z := wrap n hi * 2 ^ n + wrap n lo.
Definition udiv (n hi lo d : Z) : Z := if wrap n d =? 0 then 0 else wrap n (big n hi lo / wrap n d).
Definition urem (n hi lo d : Z) : Z := if wrap n d =? 0 then 0 else wrap n (big n hi lo mod wrap n d).
Definition sdiv (n hi lo d : Z) : Z := if wrap n d =? 0 then 0 else wrap n (Z.quot (sgn (2 * n) (big n hi lo)) (sgn n d)).
Definition srem (n hi lo d : Z) : Z := if wrap n d =? 0 then 0 else wrap n (Z.rem (sgn (2 * n) (big n hi lo)) (sgn n d)).
Inductive div_names : Z -> string -> string -> string -> string -> Prop :=
| div_names8 : div_names 8 "div8" "rem8" "idiv8" "irem8"
| div_names16 : div_names 16 "div16" "rem16" "idiv16" "irem16"
| div_names32 : div_names 32 "div32" "rem32" "idiv32" "irem32".
Lemma named_div n q r sq sr : div_names n q r sq sr -> forall hi lo d,
  named_op q [hi; lo; d] = Some (udiv n hi lo d) /\ named_op r [hi; lo; d] = Some (urem n hi lo d) /\
  named_op sq [hi; lo; d] = Some (sdiv n hi lo d) /\ named_op sr [hi; lo; d] = Some (srem n hi lo d).
Proof. intros [] hi lo d; repeat split; reflexivity. Qed.

Section Meaning.
  Variable rho : string -> Z.
  Variable mu : Z -> Z.
  Variable iota : string -> list Z -> Z.
  Notation ev := (eval rho mu iota).

  Lemma ev_ax : ev r_ax = rho "eax" mod 2 ^ 16.
  Proof. unfold r_ax. rewrite ev_slice, Z.shiftr_0_r. apply (wrap_wrap_ge 32 16). lia. Qed.

  (** mul / imul with one operand, at width 16 or 32: [acc] is the n-bit accumulator, the two halves of the double-width product are
      written edx:eax (dx:ax) *)
  Section Wide.
    Variables (n : Z) (acc a : expr) (uh ul sh sl : string).
    Hypothesis Nm : mul_names n uh ul sh sl.
    Hypothesis Sacc : size acc = n.
    Let Hn : 0 < n. Proof. destruct Nm; reflexivity. Qed.
    (** imul: the two's-complement double-width product of the signed readings *)
    Theorem imul_value : ev (EOp sh [acc; a]) * 2 ^ n + ev (EOp sl [acc; a]) = (sgn n (ev acc) * sgn n (ev a)) mod 2 ^ (2 * n).
    Proof.
      destruct (named_mul _ _ _ _ _ Nm (ev acc) (ev a)) as (_ & _ & Nh & Nl).
      rewrite (ev_named rho mu iota sh [acc; a] _ Nh), (ev_named rho mu iota sl [acc; a] _ Nl), !size_op, Sacc, !wrap_idem by lia.
      apply hi_lo_split. lia.
    Qed.

    Hypothesis Oa : operand_ok a = true.
    Hypothesis Sa : size a = n.
    Hypothesis Racc : 0 <= ev acc < 2 ^ n.
    Let Ra : 0 <= ev a < 2 ^ n. Proof. rewrite <- Sa. apply operand_range, Oa. Qed.

    Lemma umul_halves : ev (EOp uh [acc; a]) = wrap n (Z.shiftr (ev acc * ev a) n) /\ ev (EOp ul [acc; a]) = wrap n (ev acc * ev a).
    Proof.
      destruct (named_mul _ _ _ _ _ Nm (ev acc) (ev a)) as (Nh & Nl & _).
      rewrite (ev_named rho mu iota uh [acc; a] _ Nh), (ev_named rho mu iota ul [acc; a] _ Nl), !size_op, Sacc by lia.
      rewrite (wrap_small n (ev acc) Racc), (wrap_small n (ev a) Ra), wrap_idem. split; reflexivity.
    Qed.
    (** mul: the unsigned product of the accumulator and the operand *)
    Theorem umul_value : ev (EOp uh [acc; a]) * 2 ^ n + ev (EOp ul [acc; a]) = ev acc * ev a.
    Proof.
      destruct umul_halves as [-> ->]. rewrite hi_lo_split by lia. apply Z.mod_small. rewrite pow2_double by lia. nia.
    Qed.
    (** cf = of = 1 exactly when the upper half is not zero, i.e. when the product does not fit n bits *)
    Theorem umul_overflow : (ev (EOp uh [acc; a]) =? 0) = (ev acc * ev a <? 2 ^ n).
    Proof.
      pose proof umul_value as V. destruct umul_halves as [Eh El].
      pose proof (wrap_range n (Z.shiftr (ev acc * ev a) n) ltac:(lia)) as Rh. pose proof (wrap_range n (ev acc * ev a) ltac:(lia)) as Rl.
      rewrite <- Eh in Rh. rewrite <- El in Rl. clear Eh El.
      destruct (Z.eqb_spec (ev (EOp uh [acc; a])) 0), (Z.ltb_spec (ev acc * ev a) (2 ^ n)); try reflexivity; nia.
    Qed.
  End Wide.
  Lemma eax_range : 0 <= ev eax < 2 ^ 32. Proof. apply wrap_range. lia. Qed.
  Lemma ax_range : 0 <= ev r_ax < 2 ^ 16. Proof. rewrite ev_ax. apply wrap_range. lia. Qed.

  Theorem mul8_value a : operand_ok a = true -> size a = 8 -> wrap 16 (ev (EOp "umul08" [eax; a])) = wrap 8 (rho "eax") * ev a.
  Proof.
    intros Oa Sa. destruct (operand_range rho mu iota a Oa) as [_ Ra]. rewrite Sa in Ra. pose proof (wrap_range 8 (rho "eax") ltac:(lia)) as Rx.
    rewrite (ev_named rho mu iota "umul08" [eax; a] _ (named_umul08 _ _)). change (ev eax) with (wrap 32 (rho "eax")).
    rewrite (wrap_wrap_ge 32 8), (wrap_small 8 (ev a) Ra) by lia.
    assert (B : 0 <= wrap 8 (rho "eax") * ev a < 2 ^ 16) by (change (2 ^ 16) with (2 ^ 8 * 2 ^ 8); nia).
    rewrite wrap_wrap_ge by (cbn; lia). apply wrap_small, B.
  Qed.
  Theorem mul_flags_value hi : ev (nonzero32 hi) = if ev hi =? 0 then 0 else 1.
  Proof. unfold nonzero32. rewrite ev_cond. destruct (ev hi =? 0); reflexivity. Qed.

  (** imul, two / three operands: the truncated product, the same for the signed and the unsigned readings *)
  Theorem imul_trunc_value b c : operand_ok b = true ->
    let n := size b in ev (EOp "*" [b; c]) = (ev b * ev c) mod 2 ^ n /\ ev (EOp "*" [b; c]) = (sgn n (ev b) * sgn n (ev c)) mod 2 ^ n.
  Proof.
    intros Ob n. destruct (operand_range rho mu iota b Ob) as [Pb Rb]. fold n in Pb. pose proof (pow2_pos n ltac:(lia)).
    rewrite ev_mul by lia. fold n. split; [reflexivity|]. unfold wrap.
    rewrite (Z.mul_mod (sgn n (ev b))), !sgn_congr, <- Z.mul_mod by lia. reflexivity.
  Qed.

  (** div / idiv: the named quotient / remainder nodes on the accumulator pair hi:lo and the divisor, at width 8, 16 or 32 *)
  Section Div.
    Variables hi lo a : expr.
    Variable n : Z.
    Variables q r sq sr : string.
    Hypothesis Nd : div_names n q r sq sr.
    Hypothesis Oh : operand_ok hi = true.
    Hypothesis Ol : operand_ok lo = true.
    Hypothesis Oa : operand_ok a = true.
    Hypothesis Sh : size hi = n.
    Hypothesis Sl : size lo = n.
    Hypothesis Sa : size a = n.
    Hypothesis Nz : ev a <> 0.
    Let D := ev hi * 2 ^ n + ev lo.
    Let Pn : 0 < n. Proof. destruct Nd; reflexivity. Qed.
    Let Rh : 0 <= ev hi < 2 ^ n. Proof. rewrite <- Sh. apply operand_range, Oh. Qed.
    Let Rl : 0 <= ev lo < 2 ^ n. Proof. rewrite <- Sl. apply operand_range, Ol. Qed.
    Let Ra : 0 <= ev a < 2 ^ n. Proof. rewrite <- Sa. apply operand_range, Oa. Qed.
    (** the operands being reduced and the divisor not zero, the named operators divide D *)
    Let reduced : big n (ev hi) (ev lo) = D /\ wrap n (ev a) = ev a /\ (ev a =? 0) = false.
    Proof. unfold big. rewrite (wrap_small n _ Rh), (wrap_small n _ Rl), (wrap_small n _ Ra). repeat split. apply Z.eqb_neq, Nz. Qed.

    (** unsigned: when the quotient fits (no #DE), quotient and remainder are those of the double-width dividend *)
    Theorem div_value : D / ev a < 2 ^ n -> ev (EOp q [hi; lo; a]) = D / ev a /\ ev (EOp r [hi; lo; a]) = D mod ev a.
    Proof.
      intros Q. destruct (named_div _ _ _ _ _ Nd (ev hi) (ev lo) (ev a)) as (Nq & Nr & _). destruct reduced as (B & W & Z0).
      rewrite (ev_named rho mu iota q [hi; lo; a] _ Nq), (ev_named rho mu iota r [hi; lo; a] _ Nr), !size_op, Sh by lia.
      unfold udiv, urem. rewrite B, W, Z0, !wrap_idem.
      assert (D0 : 0 <= D) by (unfold D; nia). pose proof (Z.mod_pos_bound D (ev a) ltac:(lia)).
      split; apply wrap_small; [split; [apply Z.div_pos; lia | exact Q] | lia].
    Qed.
    (** signed: when the truncated quotient fits the signed range (no #DE), the signed readings of the results are the truncated
        quotient and remainder of the signed double-width dividend by the signed divisor *)
    Theorem idiv_value : let Ds := sgn (2 * n) D in let dv := sgn n (ev a) in - 2 ^ (n - 1) <= Z.quot Ds dv < 2 ^ (n - 1) ->
      sgn n (ev (EOp sq [hi; lo; a])) = Z.quot Ds dv /\ sgn n (ev (EOp sr [hi; lo; a])) = Z.rem Ds dv.
    Proof.
      intros Ds dv Q. destruct (named_div _ _ _ _ _ Nd (ev hi) (ev lo) (ev a)) as (_ & _ & Nq & Nr). destruct reduced as (B & W & Z0).
      rewrite (ev_named rho mu iota sq [hi; lo; a] _ Nq), (ev_named rho mu iota sr [hi; lo; a] _ Nr), !size_op, Sh, !sgn_of_wrap by lia.
      unfold sdiv, srem. rewrite B, W, Z0, !sgn_of_wrap. fold Ds dv. split; [apply sgn_id; assumption|]. apply sgn_id; [exact Pn|].
      (* the remainder is smaller in absolute value than the divisor, which is in range *)
      assert (Nd0 : dv <> 0) by (intros E; apply Nz; rewrite <- W; apply sgn_zero; assumption).
      pose proof (Z.rem_bound_abs Ds dv Nd0). pose proof (sgn_range n (ev a) Pn) as R. fold dv in R. lia.
    Qed.
  End Div.
  Definition acc_pair (w : Z) : expr * expr := if w =? 8 then (r_ah, r_al) else if w =? 16 then (r_dx, r_ax) else (edx, eax).
End Meaning.
