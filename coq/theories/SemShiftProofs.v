(** SemShiftProofs.v — what the destination value of the shift / rotate mirror means, for all operand expressions and all states. *)
From Coq Require Import ZArith List Bool String Lia.
From Mx Require Import Expr ExprProofs RotLemmas Sem SemProofs SemShift.
Import ListNotations.
Open Scope Z_scope.

Lemma is_shift_mirror_sound k args l : is_shift_mirror k args l = true ->
  exists a b x, args = [a; b] /\ last_expr l = Some x /\ operand_ok a = true /\ operand_ok b = true /\ (size a = 8 \/ size a = 16 \/ size a = 32) /\
    forall rho mu iota, eval rho mu iota x = eval rho mu iota (mk_aff a (shift_val k a b)).
Proof.
  unfold is_shift_mirror. destruct args as [|a [|b [|? ?]]]; try discriminate. destruct (last_expr l) as [x|]; try discriminate.
  rewrite !andb_true_iff. intros [[[Oa Ob] S] E]. exists a, b, x. repeat split; try assumption.
  - apply width_cases, S.
  - intros rho mu iota. apply eval_eqb. exact E.
Qed.

Section Meaning.
  Variable rho : string -> Z.
  Variable mu : Z -> Z.
  Variable iota : string -> list Z -> Z.
  Notation ev := (eval rho mu iota).
  Variables a b : expr.
  Hypothesis Oa : operand_ok a = true.
  (** the processor masks the count to five bits *)
  Definition count : Z := ev b mod 32.

  Lemma width_holds_32 s : s = 8 \/ s = 16 \/ s = 32 -> 32 < 2 ^ s.
  Proof. intros [-> |[-> | ->]]; reflexivity. Qed.
  Lemma count_value : size b = 8 \/ size b = 16 \/ size b = 32 -> ev (masked_count b) = count.
  Proof. intros Sb. pose proof (width_holds_32 _ Sb). apply (ev_and_ones rho mu iota b _ 5); [| |apply (ev_int_from rho mu iota b 31)]; lia. Qed.
  Lemma count_range : 0 <= count < 32.
  Proof. unfold count. apply Z.mod_pos_bound. lia. Qed.

  Hypothesis Sb : size b = 8 \/ size b = 16 \/ size b = 32.

  Theorem shl_value : ev (shift_val Sal a b) = (ev a * 2 ^ count) mod 2 ^ size a.
  Proof. pose proof count_range. cbn [shift_val]. rewrite (ev_shl _ _ _ a _ count Oa (count_value Sb)), Z.shiftl_mul_pow2 by lia. reflexivity. Qed.
  Theorem shr_value : ev (shift_val Shr a b) = ev a / 2 ^ count.
  Proof. pose proof count_range. cbn [shift_val]. rewrite (ev_shr _ _ _ a _ count Oa (count_value Sb)) by lia. apply Z.shiftr_div_pow2. lia. Qed.
  Theorem sar_value : ev (shift_val Sar a b) = (sgnv (size a) (ev a) / 2 ^ count) mod 2 ^ size a.
  Proof. pose proof count_range. cbn [shift_val]. rewrite (ev_sar _ _ _ a _ count Oa (count_value Sb)), Z.shiftr_div_pow2 by lia. reflexivity. Qed.

  (** rotates: the result's bit i is the operand's bit (i -/+ count) modulo the width *)
  Theorem ev_rol_bits : forall i, 0 <= i < size a -> Z.testbit (ev (shift_val Rol a b)) i = Z.testbit (ev a) ((i - ev b mod size a) mod size a).
  Proof.
    intros i Hi. destruct (operand_range rho mu iota a Oa) as [P R]. cbn [shift_val].
    rewrite ev_rol, rol_bits, Zminus_mod_idemp_r by assumption. reflexivity.
  Qed.
  Theorem ev_ror_bits : forall i, 0 <= i < size a -> Z.testbit (ev (shift_val Ror a b)) i = Z.testbit (ev a) ((i + ev b mod size a) mod size a).
  Proof.
    intros i Hi. destruct (operand_range rho mu iota a Oa) as [P R]. cbn [shift_val].
    rewrite ev_ror, ror_bits, Zplus_mod_idemp_r by assumption. reflexivity.
  Qed.
End Meaning.
