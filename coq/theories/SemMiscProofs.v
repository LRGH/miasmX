(** SemMiscProofs.v — what the mirror of SemMisc.v means, for all operand expressions and all states. *)
From Coq Require Import ZArith List Bool String Lia.
From Mx Require Import Expr ExprProofs Bits Sem SemProofs SemStr SemMisc.
Import ListNotations.
Open Scope Z_scope.

Lemma xadd_shape o nx a b : mirror_misc Xadd o nx [a; b] =
  let c := alu_val Add b a in
  Some (upd_znp c ++ [upd_af c; EAff (flag "cf") (add_cf_src b a c); EAff (flag "of") (add_of_src b a c); mk_aff b a; mk_aff a c]).
Proof. reflexivity. Qed.
Lemma cmps_shape o nx pa w sa pb sb : mirror_misc Cmps o nx [EMem pa w sa; EMem pb w sb] =
  Some (mirror Cmp (EMem pb w sb) (EMem pa w sa) ++ [mk_aff pa (ptr_next pa (w / 8)); mk_aff pb (ptr_next2 pa pb (w / 8))]).
Proof. reflexivity. Qed.
Lemma scas_shape o nx pa w sa : mirror_misc Scas o nx [EMem pa w sa] =
  Some (mirror Cmp (ESlice eax 0 w) (EMem pa w sa) ++ [mk_aff pa (ptr_next pa (w / 8))]).
Proof. reflexivity. Qed.
Lemma ptr_next2_same p q off : size p = size q -> ptr_next2 p q off = ptr_next q off.
Proof. intros E. unfold ptr_next2, ptr_next, int_from. rewrite E. reflexivity. Qed.

Section Meaning.
  Variable rho : string -> Z.
  Variable mu : Z -> Z.
  Variable iota : string -> list Z -> Z.
  Notation ev := (eval rho mu iota).

  (** xadd: the sum and its flags are those of add with the operands exchanged; the source register receives the old destination *)
  Theorem xadd_value a b : operand_ok a = true -> operand_ok b = true -> size a = size b ->
    let n := size a in let x := ev a in let y := ev b in let c := alu_val Add b a in
    ev c = (x + y) mod 2 ^ n /\
    ev (add_cf_src b a c) = Z.b2z (cf_add n y x 0) /\ ev (add_of_src b a c) = Z.b2z (of_add n y x 0).
  Proof.
    intros Oa Ob S n x y c.
    destruct (add_flags rho mu iota b a n Ob Oa (eq_sym S) eq_refl Add 0 (or_introl (conj eq_refl eq_refl))) as (V & C & O).
    repeat split; [|exact C|exact O]. fold c in V. rewrite V. f_equal. unfold x, y. lia.
  Qed.

  (** the loop family: ecx is decremented modulo 2^32; the branch is taken while the new count is non-zero (and zf agrees) *)
  Definition new_count : Z := (rho "ecx" - 1) mod 2 ^ 32.
  Lemma ecx_dec_value : ev ecx_dec = new_count.
  Proof. unfold ecx_dec. rewrite ev_sub by discriminate. symmetry. apply Zminus_mod. Qed.
  Lemma is_zero_value : ev (is_zero ecx_dec) = if new_count =? 0 then 1 else 0.
  Proof. unfold is_zero. rewrite ev_cond, ecx_dec_value. destruct (new_count =? 0); reflexivity. Qed.
  Theorem loop_eip b nx : ev (ECond ecx_dec b nx) = if new_count =? 0 then ev nx else ev b.
  Proof. rewrite ev_cond, ecx_dec_value. reflexivity. Qed.
  Theorem loopne_eip b nx : ev (ECond loopne_exit nx b) = if (new_count =? 0) || Z.odd (rho "zf") then ev nx else ev b.
  Proof.
    unfold loopne_exit, zf. rewrite ev_cond, ev_or, is_zero_value, ev_cond, ev_flag by discriminate.
    destruct (new_count =? 0), (Z.odd (rho "zf")); reflexivity.
  Qed.
  Theorem loope_eip b nx : ev (ECond loope_exit nx b) = if (new_count =? 0) || negb (Z.odd (rho "zf")) then ev nx else ev b.
  Proof.
    unfold loope_exit, zf. rewrite ev_cond, ev_or, is_zero_value, ev_cond, ev_flag by discriminate.
    destruct (new_count =? 0), (Z.odd (rho "zf")); reflexivity.
  Qed.
  Theorem jecxz_eip b nx : ev (ECond ecx nx b) = if rho "ecx" mod 2 ^ 32 =? 0 then ev b else ev nx.
  Proof. reflexivity. Qed.

  (** cdq / cwd: the upper half is the sign of the accumulator, so that upper:lower is its sign extension to twice the width *)
  Theorem sign_fill_value a : operand_ok a = true ->
    let n := size a in let x := ev a in
    ev (sign_fill a) = (if Z.testbit x (n - 1) then 2 ^ n - 1 else 0) /\
    x + 2 ^ n * ev (sign_fill a) = sgnv n x mod 2 ^ (2 * n).
  Proof.
    intros Oa n x. destruct (operand_range rho mu iota a Oa) as [Pn Rx]. fold n x in Pn, Rx. destruct (pow_split n Pn) as [E2 Q].
    assert (E : ev (sign_fill a) = if Z.testbit x (n - 1) then 2 ^ n - 1 else 0).
    { unfold sign_fill. rewrite ev_cond, ev_msb, !ev_int_from by (fold n; lia). fold n x. destruct (Z.testbit x (n - 1)); reflexivity. }
    split; [exact E|]. rewrite E, (msb_ge n x Pn Rx). pose proof (pow2_double n ltac:(lia)) as D. unfold sgnv. symmetry.
    destruct (2 ^ (n - 1) <=? x); [apply (wrap_unique (2 * n) _ _ (-1)) | rewrite Z.mod_small]; nia.
  Qed.

  (** cmpxchg: the comparison of the destination with the accumulator *)
  Theorem cmpxchg_cond a c : operand_ok a = true -> operand_ok c = true -> size a = size c ->
    (ev (EOp "+" [a; EOp "-" [c]]) =? 0) = (ev a =? ev c).
  Proof.
    intros Oa Oc S. destruct (operand_range rho mu iota a Oa) as [Pa Ra]. destruct (operand_range rho mu iota c Oc) as [_ Rc].
    assert (E : ev (EOp "+" [a; EOp "-" [c]]) = wrap (size a) (ev a - ev c)).
    { rewrite ev_add, ev_neg, <- S by lia. unfold wrap. rewrite Zplus_mod_idemp_r. reflexivity. }
    rewrite E. rewrite <- S in Rc. destruct (Z.eqb_spec (ev a) (ev c)) as [->|Q]; [rewrite Z.sub_diag; reflexivity|]. apply Z.eqb_neq.
    destruct (Z_lt_le_dec (ev a) (ev c)); [rewrite (wrap_unique _ _ (ev a - ev c + 2 ^ size a) (-1)) | rewrite wrap_small]; lia.
  Qed.

  (** bit tests on a register operand: the bit index is the second operand modulo the width *)
  Section BitTest.
    Variables a b : expr.
    Hypothesis Oa : operand_ok a = true.
    Hypothesis Ob : operand_ok b = true.
    Hypothesis Reg : bit_cell a b = a.                       (* the destination is a register, not a memory cell *)
    Variable k : Z.
    Hypothesis Hk : 0 <= k.
    Hypothesis Sa : size a = 2 ^ k.                          (* 16 = 2^4 or 32 = 2^5 *)
    Hypothesis Sb : size a <= 2 ^ size b.                    (* the index fits the second operand (8-bit immediates included) *)
    Definition bit_no : Z := ev b mod size a.
    Let Pa := proj1 (operand_range rho mu iota a Oa).
    Let bit_no_range : 0 <= bit_no < size a.
    Proof. apply Z.mod_pos_bound, Pa. Qed.

    Lemma bit_index_value : ev (bit_index a b) = bit_no.
    Proof.
      destruct (operand_range rho mu iota b Ob) as [Pb _]. pose proof (Z.pow_gt_lin_r 2 (size a)). unfold bit_index.
      rewrite ev_and, ev_int_from by (cbn [int_from size]; lia). replace (size a - 1) with (Z.ones k) by (rewrite Z.ones_equiv; lia).
      rewrite Z.land_ones, <- Sa by exact Hk. apply wrap_small. fold bit_no. lia.
    Qed.
    (** bt / btc / bts / btr: cf receives the selected bit *)
    Theorem bit_cf_value : ev (EOp "&" [EOp ">>" [bit_cell a b; bit_index a b]; int_from a 1]) = Z.b2z (Z.testbit (ev a) bit_no).
    Proof.
      rewrite Reg, ev_and, size_op, (ev_shr rho mu iota a _ _ Oa bit_index_value), ev_one, land1_bit0, Z.shiftr_spec by (rewrite ?size_op; lia).
      apply wrap_b2z, Pa.
    Qed.
    Lemma bit_mask_value : ev (bit_mask a b) = 2 ^ bit_no /\ size (bit_mask a b) = size a.
    Proof.
      split; [|unfold bit_mask; rewrite size_op; cbn [int_from size]; lia]. assert (O1 : operand_ok (int_from a 1) = true) by (apply Z.ltb_lt, Pa).
      unfold bit_mask. rewrite (ev_shl rho mu iota _ _ _ O1 bit_index_value), ev_one, Z.shiftl_1_l by lia.
      apply wrap_small. split; [apply Z.pow_nonneg | apply Z.pow_lt_mono_r]; cbn [int_from size]; lia.
    Qed.
    (** bts sets, btr clears, btc complements the selected bit and leaves the others *)
    Theorem bts_bits i : 0 <= i < size a -> Z.testbit (ev (EOp "|" [bit_cell a b; bit_mask a b])) i = if i =? bit_no then true else Z.testbit (ev a) i.
    Proof.
      intros Hi. rewrite Reg, or_bit, (proj1 bit_mask_value), Z.pow2_bits_eqb, (Z.eqb_sym bit_no i) by lia.
      destruct (i =? bit_no); [apply orb_true_r | apply orb_false_r].
    Qed.
    Theorem btc_bits i : 0 <= i < size a -> Z.testbit (ev (EOp "^" [bit_cell a b; bit_mask a b])) i = if i =? bit_no then negb (Z.testbit (ev a) i) else Z.testbit (ev a) i.
    Proof.
      intros Hi. rewrite Reg, xor_bit, (proj1 bit_mask_value), Z.pow2_bits_eqb, (Z.eqb_sym bit_no i) by lia.
      destruct (i =? bit_no); [apply xorb_true_r | apply xorb_false_r].
    Qed.
    Theorem btr_bits i : 0 <= i < size a -> Z.testbit (ev (EOp "&" [bit_cell a b; e_not (bit_mask a b)])) i = if i =? bit_no then false else Z.testbit (ev a) i.
    Proof.
      intros Hi. destruct bit_mask_value as [Mv Ms]. rewrite Reg, and_bit, not_bit, Mv, Z.pow2_bits_eqb, (Z.eqb_sym bit_no i) by lia.
      destruct (i =? bit_no); [apply andb_false_r | apply andb_true_r].
    Qed.
  End BitTest.

  (** bswap: byte j of the result is byte 3 - j of the operand *)
  Section Bswap.
    Variable a : expr.
    Hypothesis Sa : size a = 32.
    Definition byte_slot (sh : Z) : expr := EOp ">>" [EOp "&" [int_from a (Z.shiftl 255 sh); a]; EInt false 32 sh].
    Lemma masked_bits M t : 0 <= t < 32 -> Z.testbit (ev (EOp "&" [int_from a M; a])) t = Z.testbit M t && Z.testbit (ev a) t.
    Proof. intros Ht. rewrite and_bit by (cbn [int_from size]; lia). cbn [int_from eval]. rewrite Sa, testbit_wrap by lia. reflexivity. Qed.
    Lemma low_slot_bits t : 0 <= t < 8 -> Z.testbit (ev (EOp "&" [int_from a 255; a])) t = Z.testbit (ev a) t.
    Proof. intros Ht. rewrite masked_bits by lia. change 255 with (Z.ones 8). rewrite Z.ones_spec_low by lia. reflexivity. Qed.
    Lemma byte_slot_bits sh t : 0 <= sh -> sh + 8 <= 32 -> 0 <= t < 8 -> Z.testbit (ev (byte_slot sh)) t = Z.testbit (ev a) (t + sh).
    Proof.
      intros H0 H1 Ht. assert (B : 32 < 2 ^ 32) by reflexivity. unfold byte_slot.
      rewrite ev_shr_sat, size_op by (rewrite ?size_op; cbn [int_from size]; lia). cbn [int_from size]. rewrite Sa.
      change (ev (EInt false 32 sh)) with (wrap 32 sh). rewrite (wrap_small 32 sh), Z.min_l by lia.
      rewrite testbit_wrap, Z.shiftr_spec, testbit_wrap, masked_bits, Z.shiftl_spec by lia. replace (t + sh - sh) with t by lia.
      change 255 with (Z.ones 8). rewrite Z.ones_spec_low by lia. reflexivity.
    Qed.
    (** bit 8j + m lies in the field that starts at 8j and in no other *)
    Theorem bswap_bytes j m : 0 <= j < 4 -> 0 <= m < 8 -> Z.testbit (ev (bswap_val a)) (8 * j + m) = Z.testbit (ev a) (8 * (3 - j) + m).
    Proof.
      intros Hj Hm. unfold bswap_val. change 65280 with (Z.shiftl 255 8). change 16711680 with (Z.shiftl 255 16). change 4278190080 with (Z.shiftl 255 24).
      fold (byte_slot 8) (byte_slot 16) (byte_slot 24). rewrite eval_compose. cbn [map fold_left]. unfold slot_val, slot_hi, slot_lo, slot_e. cbn [fst snd].
      rewrite !Z.lor_spec, Z.bits_0. assert (J : j = 0 \/ j = 1 \/ j = 2 \/ j = 3) by lia. destruct J as [-> | [-> | [-> | ->]]].
      - rewrite (testbit_slot_in _ _ 0), !testbit_slot_out, byte_slot_bits by lia. cbn [orb]. f_equal. lia.
      - rewrite (testbit_slot_in _ _ 8), !testbit_slot_out, byte_slot_bits, orb_false_r by lia. cbn [orb]. f_equal. lia.
      - rewrite (testbit_slot_in _ _ 16), !testbit_slot_out, byte_slot_bits, !orb_false_r by lia. cbn [orb]. f_equal. lia.
      - rewrite (testbit_slot_in _ _ 24), !testbit_slot_out, low_slot_bits, !orb_false_r by lia. cbn [orb]. f_equal. lia.
    Qed.
  End Bswap.
End Meaning.
