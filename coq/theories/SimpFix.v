(** SimpFix.v — the result of the simplifier is a fixpoint of its own rewriting step (C13, root level): one more application of
    _expr_simp to a simplified expression returns an == expression.  For ALL trees (no well-formedness needed). *)
From Coq Require Import List Bool.
From Mx Require Import Expr Simp.
Import ListNotations.

Definition step_fixpoint (r : expr) : Prop := exists r1, simp1 r = Ok r1 /\ expr_eqb r1 r = true.

Lemma loop_fixpoint rec_simp : forall n e r, simp_loop rec_simp n e = Ok r -> step_fixpoint r.
Proof.
  induction n as [|n IH]; intros e r H; simpl in H; [discriminate|].
  destruct (simp1 e) as [e1| |] eqn:E1; try discriminate. cbn [bind] in H.
  destruct (expr_eqb e1 e) eqn:Q.
  - inversion H; subst. exists e1. split; assumption.
  - destruct (rec_simp e1) as [e2| |]; try discriminate. cbn [bind] in H. apply (IH e2 r H).
Qed.

Lemma visitM_ends_with_cb cb : forall e r, visitM cb e = Ok r -> exists x, cb x = Ok r.
Proof.
  destruct e; intros r H; simpl in H;
    repeat match type of H with
           | bind ?m _ = _ => destruct m; try discriminate; cbn [bind] in H
           end; eauto.
Qed.

Theorem simp_result_is_step_fixpoint : forall fuel e r, simp fuel e = Ok r -> step_fixpoint r.
Proof.
  destruct fuel as [|f]; intros e r H; [simpl in H; discriminate|].
  simpl in H. destruct (visitM_ends_with_cb _ _ _ H) as [x Hx]. apply (loop_fixpoint (simp f) (S f) x r Hx).
Qed.
